From Coq Require Import List Arith Lia Permutation.
Import ListNotations.
From DV Require Import Base.Lists Own.Model.

Lemma Permutation_seq_in l n t : Permutation l (seq 0 n) -> In t l <-> t < n.
Proof.
  intros P. split; intros H.
  - apply (Permutation_in _ P), in_seq in H. lia.
  - apply (Permutation_in _ (Permutation_sym P)), in_seq. lia.
Qed.

Lemma nth_set_nth {A} (l : list A) r x d : nth r (set_nth l r x d) d = x.
Proof. revert l. induction r as [|r IH]; intros [|h l]; cbn; auto. Qed.

(* overwriting position r trades what the old element contributed for what the new one does *)
Lemma flat_map_set_nth {A B} (f : A -> list B) d : f d = [] -> forall r l x,
  Permutation (f (nth r l d) ++ flat_map f (set_nth l r x d)) (f x ++ flat_map f l).
Proof.
  intros Hf. induction r as [|r IH]; intros [|h t] x; cbn [nth set_nth flat_map].
  - now rewrite Hf.
  - apply Permutation_app_swap_app.
  - (* past the end set_nth pads with d, which contributes nothing *)
    rewrite Hf, <- (IH [] x). destruct r; cbn [nth]; now rewrite Hf.
  - rewrite Permutation_app_swap_app, IH. apply Permutation_app_swap_app.
Qed.

Definition Inv (s : st) : Prop := Permutation (all_tokens s) (seq 0 (next s)).

Lemma init_inv : Inv init.
Proof. apply Permutation_refl. Qed.

(* the tokens a register's content owns: those its drop will release and those it will forget *)
Definition owns (v : option val) : list nat := of_opt released v ++ of_opt forgotten v.

(* Replacing the value in register r keeps the token equation, provided what the step logs and the new
   value owns is what the old value owned plus the tokens created. *)
Lemma put_inv s r v lg fg nx fresh :
  Inv s ->
  Permutation (lg ++ fg ++ owns v) (owns (get s r) ++ fresh) ->
  seq 0 nx = seq 0 (next s) ++ fresh ->
  Inv (put s r v lg fg nx).
Proof.
  unfold Inv, all_tokens, final_log, final_forgot, live_released, live_forgotten, owns, put, get.
  cbn [regs log forgot next].
  rewrite !(Permutation_count_occ Nat.eq_dec). intros HI HP -> t. specialize (HI t). specialize (HP t).
  pose proof (proj1 (Permutation_count_occ Nat.eq_dec _ _)
                (flat_map_set_nth (of_opt released) None eq_refl r (regs s) v) t) as P1.
  pose proof (proj1 (Permutation_count_occ Nat.eq_dec _ _)
                (flat_map_set_nth (of_opt forgotten) None eq_refl r (regs s) v) t) as P2.
  rewrite !count_occ_app in *. lia.
Qed.

(* the two shapes a step takes: no token is created ... *)
Lemma put_keep s r v lg fg :
  Inv s -> Permutation (lg ++ fg ++ owns v) (owns (get s r)) -> Inv (put s r v lg fg (next s)).
Proof. intros HI HP. apply put_inv with (fresh := []); [exact HI|now rewrite app_nil_r..]. Qed.

(* ... or the next one is, for a value put into an empty register *)
Lemma put_fresh s r v :
  Inv s -> get s r = None -> owns v = [next s] -> Inv (put s r v [] [] (S (next s))).
Proof.
  intros HI E Hv. apply put_inv with (fresh := [next s]); [exact HI| |apply seq_S]. now rewrite E, Hv.
Qed.

Lemma step_inv s o s' : Inv s -> step fixed_into s o = Some s' -> Inv s'.
Proof.
  intros HI Hs. destruct o; cbn [step] in Hs.
  (* by what the registers the operation reads hold; where it does not type-check there is no step.  The pattern
     runs over Some of VStd ok tok | VDip ok tok | VBox tok | VOwned tok | VCb dtor tok (tok an option, except in
     VCb), then None *)
  all: repeat match type of Hs with context [match get _ ?r with _ => _ end] =>
         destruct (get s r) as [[?ok [?t|]|?ok [?t|]|[?t|]|[?t|]|?dtor ?t]|] eqn:?
       end; try discriminate Hs.
  all: injection Hs as <-.
  (* OAsRef leaves the state as it is *)
  all: try exact HI.
  (* every other step is a put; which of the two lemmas applies is decided by the step's new counter alone: put_keep
     is stated for next s and does not unify with S (next s), where put_fresh does *)
  all: (apply put_keep; [exact HI|]) || (apply put_fresh; [exact HI|assumption|]).
  (* what is left is put_keep's Permutation or put_fresh's equation; once the register's old content is put in and
     the flags are fixed, both sides compute to literally the same list, so reflexivity (Permutation_refl, eq_refl)
     closes it *)
  all: try match goal with H : get _ _ = _ |- _ => rewrite H end.
  all: repeat match goal with d : bool |- _ => destruct d end; reflexivity.
Qed.

Lemma run_inv ops : forall s s', Inv s -> run fixed_into s ops = Some s' -> Inv s'.
Proof.
  induction ops as [|o r IH]; intros s s' HI Hr; cbn [run] in Hr.
  - now injection Hr as <-.
  - destruct (step fixed_into s o) as [s1|] eqn:Hs; [|discriminate]. eauto using step_inv.
Qed.

(* Every token ever created is, at the end of the program, either dropped exactly once or belongs to a
   destructor-less callback (never dropped); nothing is dropped twice; nothing is dropped that was not created. *)
Theorem exactly_once ops s :
  run fixed_into init ops = Some s ->
  Permutation (final_log s ++ final_forgot s) (seq 0 (next s)) /\
  NoDup (final_log s) /\
  (forall t, t < next s -> ~ In t (final_forgot s) -> count_occ Nat.eq_dec (final_log s) t = 1) /\
  (forall t, In t (final_log s) -> t < next s).
Proof.
  intros HI%(run_inv ops init s init_inv). unfold Inv, all_tokens in HI.
  assert (ND : NoDup (final_log s)).
  { eapply NoDup_app_remove_r, Permutation_NoDup; [symmetry; exact HI|apply seq_NoDup]. }
  repeat split; [exact HI|exact ND| |].
  - intros t Ht Hnf. apply NoDup_count_occ'; [exact ND|].
    apply (Permutation_seq_in _ _ _ HI), in_app_or in Ht. tauto.
  - intros t Ht. apply (Permutation_seq_in _ _ _ HI), in_or_app. now left.
Qed.

(* at every prefix of a history: no token has been dropped twice, and nothing still owned by a
   register has been dropped (no use after drop) *)
Theorem never_twice ops s :
  run fixed_into init ops = Some s ->
  NoDup (log s) /\ (forall t, In t (live_released s) -> ~ In t (log s)).
Proof.
  intros (_ & ND & _)%exactly_once. unfold final_log in ND. split; [eapply NoDup_app_remove_r, ND|].
  rewrite (NoDup_count_occ Nat.eq_dec) in ND. intros t Hl%(count_occ_In Nat.eq_dec) Hlog%(count_occ_In Nat.eq_dec).
  specialize (ND t). rewrite count_occ_app in ND. lia.
Qed.

(* the conversions themselves move the payload and drop nothing *)
Theorem convert_preserves_owner s r ok t :
  get s r = Some (VDip ok (Some t)) ->
  exists s', step fixed_into s (OInto r) = Some s' /\ log s' = log s /\ get s' r = Some (VStd ok (Some t)).
Proof.
  intros H. cbn [step]. rewrite H. eexists. split; [reflexivity|]. split; [apply app_nil_r|apply nth_set_nth].
Qed.

(* the code before the repair (shell dropped after the payload was moved out) violates the property:
   the witness history is what the correspondence check replays on the implementation *)
Theorem into_result_buggy_refuted :
  exists ops s, run buggy_into init ops = Some s /\ count_occ Nat.eq_dec (final_log s) 0 = 2.
Proof. now exists [OMk 0 true; OFrom 0; OInto 0], (mkSt [Some (VStd true (Some 0))] [0] [] 1). Qed.

Example exactly_once_nonvacuous :
  exists s, run fixed_into init [OMk 0 true; OFrom 0; OClone 0 1; OInto 0; ODrop 0; OMkCb 2 false; OMkBox 3; OBoxToOwned 3; ODrop 2; OMkNullOwned 4; OOwnedToBox 4] = Some s
            /\ final_log s = [0; 1; 3] /\ final_forgot s = [2].
Proof.
  now exists (mkSt [None; Some (VDip true (Some 1)); None; Some (VOwned (Some 3)); Some (VBox None)] [0] [2] 4).
Qed.
