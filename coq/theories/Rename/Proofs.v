From Coq Require Import List String Bool Arith Lia.
Import ListNotations.
From DV Require Import Base.Lists Cfg.Model Rename.Model.
Local Open Scope string_scope.
Local Open Scope list_scope.

Lemma substring_app_l a b : String.substring 0 (String.length a) (a ++ b)%string = a.
Proof. induction a as [|c a IH]; cbn; [now destruct b|]. now rewrite IH. Qed.

Lemma prefix_app p s : String.prefix p (p ++ s)%string = true.
Proof. apply prefix_correct, substring_app_l. Qed.

Lemma find_sub_prefix pat s i : String.prefix pat s = true -> find_sub pat s i = Some i.
Proof. destruct s; cbn [find_sub]; now intros ->. Qed.

(* [occurs_in pat s]: some suffix of s starts with pat *)
Fixpoint occurs_in (pat s : string) : bool :=
  String.prefix pat s || match s with EmptyString => false | String _ r => occurs_in pat r end.

Lemma find_sub_none pat s i : occurs_in pat s = false -> find_sub pat s i = None.
Proof.
  revert i. induction s as [|a s IH]; intros i H; cbn [occurs_in find_sub] in *;
    apply orb_false_iff in H; destruct H as [-> H]; auto.
Qed.

Lemma substring_skip a k n b : String.substring (String.length a + k) n (a ++ b)%string = String.substring k n b.
Proof. induction a as [|c a IH]; cbn; [reflexivity|exact IH]. Qed.

Lemma substring_all s : String.substring 0 (String.length s) s = s.
Proof. induction s as [|c s IH]; cbn; [reflexivity|now rewrite IH]. Qed.

(* [no_start pat a rest]: in a ++ rest no occurrence of pat starts inside a, so that a pat which follows a is the first
   one. [occurs_in pat a = false] would be too weak a hypothesis: it misses an occurrence that starts in a and ends in
   rest. On closed strings the condition is decided by evaluation. *)
Fixpoint no_start (pat a rest : string) : bool :=
  match a with
  | EmptyString => true
  | String c a' => negb (String.prefix pat (a ++ rest)%string) && no_start pat a' rest
  end.

Lemma find_sub_app pat a rest i :
  no_start pat a (pat ++ rest)%string = true ->
  find_sub pat (a ++ pat ++ rest)%string i = Some (String.length a + i).
Proof.
  revert i. induction a as [|c a IH]; intros i H.
  - apply (find_sub_prefix pat (pat ++ rest) i), prefix_app.
  - cbn [no_start] in H. apply andb_true_iff in H. destruct H as [H1 H2]. apply negb_true_iff in H1.
    cbn [append find_sub String.length] in *. now rewrite H1, IH, Nat.add_succ_r.
Qed.

(* RenameAttr::apply: the first "{0}" of a pattern is replaced by the name ... *)
Theorem apply_subst_first a b n :
  no_start "{0}" a ("{0}" ++ b)%string = true ->
  apply_pattern (a ++ "{0}" ++ b)%string n = (a ++ n ++ b)%string.
Proof.
  intros H. unfold apply_pattern. rewrite (find_sub_app "{0}" a b 0 H), Nat.add_0_r.
  rewrite substring_app_l, substring_skip. cbn [String.substring append].
  replace (String.length _ - _) with (String.length b) by (rewrite !length_append; cbn [String.length]; lia).
  now rewrite substring_all.
Qed.

(* ... and a pattern without "{0}" is a pure rename *)
Theorem apply_no_placeholder p n : occurs_in "{0}" p = false -> apply_pattern p n = p.
Proof. intros H. unfold apply_pattern. now rewrite (find_sub_none "{0}" p 0 H). Qed.

(* inheritance: the innermost item that writes an abi_rename decides; the last attribute on an item wins *)
Lemma extend_app inh a b : extend inh (a ++ b) = extend (extend inh a) b.
Proof. revert inh. induction a as [|p a IH]; intros inh; cbn; [reflexivity|apply IH]. Qed.

Theorem extend_last inh own p : extend inh (own ++ [p]) = Some p.
Proof. now rewrite extend_app. Qed.

Theorem extend_nil inh : extend inh [] = inh.
Proof. reflexivity. Qed.

Theorem method_effective_is_innermost m i me p ty name :
  method_abi m i (me ++ [p]) ty name = apply_pattern p (ty ++ "_" ++ name)%string /\
  method_abi m (i ++ [p]) [] ty name = apply_pattern p (ty ++ "_" ++ name)%string /\
  method_abi (m ++ [p]) [] [] ty name = apply_pattern p (ty ++ "_" ++ name)%string /\
  method_abi [] [] [] ty name = (ty ++ "_" ++ name)%string.
Proof. unfold method_abi. rewrite !extend_last. cbn. repeat split. Qed.

Lemma dtor_abi_last m t p ty : dtor_abi m (t ++ [p]) ty = apply_pattern p (ty ++ "_destroy")%string.
Proof. unfold dtor_abi. now rewrite extend_last. Qed.

(* a type-level abi_rename reaches the destructor, never the methods *)
Theorem type_abi_rename_only_dtor m t ty :
  dtor_abi m (t ++ ["x_{0}"]) ty = ("x_" ++ ty ++ "_destroy")%string.
Proof.
  rewrite dtor_abi_last. change "x_{0}" with ("x_" ++ "{0}" ++ "")%string.
  now rewrite apply_subst_first, append_nil_r.
Qed.

Lemma subset_refl l : subset l l = true.
Proof. apply forallb_forall. intros x Hx. now apply (existsb_eqb_In _ _ _ String.eqb_eq). Qed.

Lemma incl_flat_map {A B} (f g : A -> list B) l : (forall a, incl (f a) (g a)) -> incl (flat_map f l) (flat_map g l).
Proof. intros H x. rewrite !in_flat_map. intros (a & Ha & Hx). exists a. split; [exact Ha|now apply H]. Qed.

(* every symbol a backend refers to is exported by the Rust library *)
Theorem referenced_subset_exported b ms x : In x (referenced b ms) -> In x (exported ms).
Proof.
  revert x. apply incl_flat_map. intros m. apply incl_flat_map. intros t. apply incl_app_app.
  - apply incl_flat_map. intros i x. rewrite in_flat_map, in_map_iff. intros (me & Hme & Hx). exists me.
    destruct (is_some_true _); [|contradiction]. destruct Hx as [Hx|[]]. now split.
  - destruct (ty_opaque t), (is_some_true _); cbn [andb]; auto using incl_refl, incl_nil_l.
Qed.

(* without any disable attribute a backend refers to everything that is exported *)
Example names_example :
  method_abi ["ns_{0}"] [] [] "Foo" "bar" = "ns_Foo_bar" /\ method_abi ["ns_{0}"] ["{0}"] [] "Foo" "bar" = "Foo_bar" /\
  method_abi ["ns_{0}"] [] ["renamed"] "Foo" "bar" = "renamed" /\ dtor_abi ["ns_{0}"] ["{0}_v2"] "Foo" = "Foo_destroy_v2" /\
  method_abi ["a_{0}"; "b_{0}"] [] [] "T" "m" = "b_T_m".
Proof. repeat split. Qed.
