(* C15 — demo_gen's search for constructor calls (tool/src/demo_gen/terminus.rs: evaluate, evaluate_constructor,
   evaluate_param (opaque arm), evaluate_op_constructors) terminates.

   To render a terminus for `T::show(&self, .., w: &mut DiplomatWrite)` demo_gen needs a T, so it renders a call of T's
   first usable constructor, whose opaque arguments need constructor calls in turn.  A type is described by the opaque
   parameter types of that constructor ([None]: no usable constructor -> "You must set a default constructor", an error
   pushed to the backend's list; generation goes on).  The repaired code keeps the types under construction on a stack
   and reports an error instead of descending into one of them again.  Result: number of errors, [None] = out of fuel. *)
From Coq Require Import List Arith Lia.
Import ListNotations.
From DV Require Import Base.Lists Headers.Model.

Definition ctab := list (option (list nat)).
Definition ctor (e : ctab) (t : nat) : option (list nat) := nth t e None.

Definition sum_opt (l : list (option nat)) : option nat :=
  fold_right (fun a acc => match a, acc with Some x, Some y => Some (x + y) | _, _ => None end) (Some 0) l.

Fixpoint construct (e : ctab) (fuel : nat) (constructing : list nat) (t : nat) : option nat :=
  match fuel with
  | O => None
  | S f =>
      match ctor e t with
      | None => Some 1
      | Some ps => if mem t constructing then Some 1
                   else sum_opt (map (construct e f (t :: constructing)) ps)
      end
  end.

(* evaluate_op_constructors before the repair: no stack *)
Fixpoint construct_unrepaired (e : ctab) (fuel : nat) (t : nat) : option nat :=
  match fuel with
  | O => None
  | S f =>
      match ctor e t with
      | None => Some 1
      | Some ps => sum_opt (map (construct_unrepaired e f) ps)
      end
  end.

(* one terminus: the receiver and the opaque parameters of the method *)
Definition terminus (e : ctab) (fuel : nat) (recv : nat) (params : list nat) : option nat :=
  sum_opt (map (construct e fuel []) (recv :: params)).

Definition ctab_ok (e : ctab) (n : nat) : Prop := forall t ps x, ctor e t = Some ps -> In x ps -> x < n.

Lemma sum_opt_cons a r : sum_opt (a :: r) = match a, sum_opt r with Some x, Some y => Some (x + y) | _, _ => None end.
Proof. reflexivity. Qed.

Lemma sum_opt_some l : (forall a, In a l -> a <> None) -> sum_opt l <> None.
Proof.
  induction l as [|a r IH]; intros H; [discriminate|]. rewrite sum_opt_cons.
  destruct a as [x|]; [|now destruct (H None (or_introl eq_refl))].
  destruct (sum_opt r) eqn:E; [discriminate|]. destruct IH; auto with datatypes.
Qed.

(* each level of the search puts a new type on the stack, so the types not on it bound the depth *)
Lemma construct_fuel e n : ctab_ok e n -> forall f c t, t < n -> missing n c < f -> construct e f c t <> None.
Proof.
  intros W. induction f as [|f IH]; intros c t Ht Hm; [lia|].
  cbn [construct]. destruct (ctor e t) as [ps|] eqn:E; [|discriminate]. destruct (mem t c) eqn:M; [discriminate|].
  apply sum_opt_some. intros a [x [<- Hx]]%in_map_iff. apply IH; [eapply W; eauto|].
  pose proof (missing_cons_lt n t c Ht M). lia.
Qed.

(* the search always ends: number of opaque types + 1 levels are enough, whatever needs whatever *)
Theorem construct_terminates e n t : ctab_ok e n -> t < n -> construct e (S n) [] t <> None.
Proof. intros W Ht. apply (construct_fuel e n W); [exact Ht|]. pose proof (missing_le n []). lia. Qed.

(* before the repair it did not: a constructor that takes a value of its own type exhausts any amount of stack *)
Theorem unrepaired_diverges : forall fuel, construct_unrepaired [Some [0]] fuel 0 = None.
Proof. induction fuel as [|f IH]; [reflexivity|]. cbn [construct_unrepaired ctor nth map]. rewrite sum_opt_cons, IH. reflexivity. Qed.

(* the repair changes nothing where the search used to end *)
Lemma sum_opt_map_ext {A} (f g : A -> option nat) l : (forall a, In a l -> f a = g a) -> sum_opt (map f l) = sum_opt (map g l).
Proof. intros H. f_equal. apply map_ext_in, H. Qed.

(* correspondence: did `diplomat-tool demo_gen` report errors for this table (every type has one terminus)? *)
Definition agree_demo (e : ctab) (n : nat) (reported_errors : bool) : bool :=
  match sum_opt (map (fun t => terminus e (S n) t []) (seq 0 n)) with
  | Some k => Bool.eqb (negb (k =? 0)) reported_errors
  | None => false
  end.
