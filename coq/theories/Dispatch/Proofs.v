(* C15 - whatever the gate accepts is one of the enumerated shape classes (Dispatch/Model.v).
   Plan: a type of depth at most d survives [trunc d] ([trunc_id]); the declarative rules of Gate/Spec.v bound the depth of
   accepted outputs, inputs and return types ([out_depth], [in_depth], and by cases for returns); the gate's functions
   accept exactly what the rules allow (Gate/Proofs.v), so what they accept is its own class. *)
From Coq Require Import List Lia.
Import ListNotations.
From DV Require Import Base.Lists Gate.Model Gate.Spec Gate.Proofs Dispatch.Model.

(* [depth] counts the compound constructors above a leaf.  Accepted outputs have depth at most 2: Option<Box<Opaque>> *)
Lemma out_depth fl s r t : OutOk fl s r t -> depth t <= 2.
Proof.
  destruct 1 as [ | | | | | | | | | |dipl t Hp _ _| | ]; cbn; try lia.
  (* what is left is OOptValue, whose payload is one of five leaves *)
  destruct Hp as [Hp|[->| ->]]; [destruct Hp|..]; cbn; lia.
Qed.

Lemma trunc_id d t : depth t <= d -> trunc d t = t.
Proof.
  revert t. induction d as [|d IH]; intros t H; destruct t as [ | | | | | | | | | | | |ps r]; cbn in *; try reflexivity; try lia;
    f_equal; try (apply IH; lia).
  (* what is left are the parameters and the result of a callback type *)
  all: apply le_S_n, fold_right_max_le in H; destruct H as [Hr Hp].
  - rewrite <- (map_id ps) at 2. apply map_ext_in. intros p Hp'. apply IH, Hp, Hp'.
  - apply IH, Hr.
Qed.

(* every accepted output shape is its own class ([classify] keeps what lies above depth 3): the enumeration to depth 3
   contains it literally *)
Theorem accepted_outputs_are_classes fl s r t : lot fl s r t = true -> classify t = t.
Proof. intros H. apply lot_iff in H. apply trunc_id. apply out_depth in H. lia. Qed.

Lemma in_depth fl s t : InOk fl s t -> (forall ps r, t <> TFunction ps r) -> depth t <= 2.
Proof.
  destruct 1 as [ | | | | |dipl t Hp _ _|dipl t Hs _ _| | | |ps r _ _ _ _]; intros Hnf; cbn; try lia.
  - (* IOptValue: the payload is a leaf *) destruct Hp; cbn; lia.
  - (* IOptSlice: so is a slice *) destruct Hs; cbn; lia.
  - (* IFunction: excluded *) destruct (Hnf ps r eq_refl).
Qed.

Theorem accepted_inputs_are_classes fl s t :
  lt fl s t = true -> (forall ps r, t <> TFunction ps r) -> classify t = t.
Proof. intros H Hnf. apply lt_iff in H. apply trunc_id. pose proof (in_depth _ _ _ H Hnf). lia. Qed.

(* and so are accepted return types, which may wrap an accepted output once more (Result, Option): depth at most 3,
   which is where [classify] cuts *)
Theorem accepted_returns_are_classes fl t : lret fl t = true -> classify t = t.
Proof.
  intros H. apply lret_iff in H. apply trunc_id.
  destruct H as [|ok err Ho He|d|d v Hp Ho|d v Hn Hu Ho|t Hr Hopt Hu Ho]; try apply out_depth in Ho; cbn [depth] in *; try lia.
  (* Result: either side is unit or an accepted output *)
  destruct Ho as [->|Ho%out_depth], He as [->|He%out_depth]; cbn; lia.
Qed.
