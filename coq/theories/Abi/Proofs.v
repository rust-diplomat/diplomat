From Coq Require Import List String NArith.
Import ListNotations.
From DV Require Import gen.Tables Abi.Model.
Local Open Scope string_scope.
Local Open Scope list_scope.

(* Tie A: the C01 theorems that open the file and the C07 theorems that close it evaluate the primitive-name and capi
   tables of gen/Tables.v, which are regenerated from the source on every run, so they are re-checked against the code
   each time. The C10 theorems in between hold whatever those tables contain. *)

(* every primitive's C type has the representation of the Rust primitive (width, signedness, float kind) *)
Theorem c_prim_abi_agrees : forall p, c_name_abi (c_prim_name p) = Some (rust_prim_abi p).
Proof. destruct p; vm_compute; reflexivity. Qed.

(* the name used for derived types (OptionU8, DiplomatU8View) has a capi row whose C type is the primitive's C type *)
Theorem capi_row_agrees : forall p, assoc_s (c_derived_name p) capi_rows = Some (c_prim_name p).
Proof. destruct p; vm_compute; reflexivity. Qed.

(* declared C types mean what the macro compiles: parameters over primitives, for both Option spellings *)
Theorem param_abi_agrees_prim : forall env sp p mu,
  option_map norm (c_decl_abi env (PV (VPrim p))) = Some (norm (ffi_param_abi env (PV (VPrim p)))) /\
  option_map norm (c_decl_abi env (POpt sp (VPrim p))) = Some (norm (ffi_param_abi env (POpt sp (VPrim p)))) /\
  option_map norm (c_decl_abi env (PSlice p mu)) = Some (norm (ffi_param_abi env (PSlice p mu))) /\
  option_map norm (c_decl_abi env (POptSlice p)) = Some (norm (ffi_param_abi env (POptSlice p))).
Proof.
  (* only the name of a slice view depends on mutability *)
  intros env sp p mu. repeat split; [..|destruct mu|]; destruct p; vm_compute; reflexivity.
Qed.

Theorem param_abi_agrees_other : forall env sp n mu w,
  option_map norm (c_decl_abi env (PV (VEnum n))) = Some (norm (ffi_param_abi env (PV (VEnum n)))) /\
  option_map norm (c_decl_abi env (POpt sp (VEnum n))) = Some (norm (ffi_param_abi env (POpt sp (VEnum n)))) /\
  option_map norm (c_decl_abi env (PORef mu)) = Some (norm (ffi_param_abi env (PORef mu))) /\
  option_map norm (c_decl_abi env POOpt) = Some (norm (ffi_param_abi env POOpt)) /\
  option_map norm (c_decl_abi env PWrite) = Some (norm (ffi_param_abi env PWrite)) /\
  option_map norm (c_decl_abi env (PStr w)) = Some (norm (ffi_param_abi env (PStr w))) /\
  option_map norm (c_decl_abi env POptStr) = Some (norm (ffi_param_abi env POptStr)).
Proof. intros env sp n mu w. destruct w; vm_compute; repeat split. Qed.

(* by-value structs and options of structs: equal whenever the struct itself is laid out as declared
   (non-zero-sized, already in normal form) *)
Theorem param_abi_agrees_struct : forall env sp n,
  is_zst (env n) = false -> norm (env n) = env n ->
  option_map norm (c_decl_abi env (PV (VStruct n))) = Some (norm (ffi_param_abi env (PV (VStruct n)))) /\
  option_map norm (c_decl_abi env (POpt sp (VStruct n))) = Some (norm (ffi_param_abi env (POpt sp (VStruct n)))).
Proof. intros env sp n _ _. split; reflexivity. Qed.

(* C10: the spelling of Option is irrelevant for the declaration and the representation *)
Theorem spelling_irrelevant : forall env v,
  c_param_ty (POpt true v) = c_param_ty (POpt false v) /\
  ffi_param_abi env (POpt true v) = ffi_param_abi env (POpt false v) /\
  (forall m, c_ret_ty m (ROpt true v) = c_ret_ty m (ROpt false v)) /\
  c_result_members (ROpt true v) = c_result_members (ROpt false v) /\
  ffi_ret_abi env (ROpt true v) = ffi_ret_abi env (ROpt false v).
Proof. intros env v. destruct v; repeat split. Qed.

(* unit arms occupy no payload: the C typedef has no member for them and the Rust side adds no bytes *)
Theorem unit_arm_no_payload : forall env v,
  c_result_members (RRes ArmUnit (ArmV v)) = [("err", c_vty v)] /\
  c_result_members (RRes (ArmV v) ArmUnit) = [("ok", c_vty v)] /\
  c_result_members (RRes ArmUnit ArmUnit) = [] /\
  c_result_members (RRes ArmZst ArmUnit) = [] /\
  norm (ffi_ret_abi env (RRes ArmUnit ArmUnit)) = ARec [ABool] /\
  size_align (ffi_ret_abi env (RRes ArmUnit ArmUnit)) = (1, 1)%N /\
  size_align (ffi_ret_abi env (RRes ArmZst ArmUnit)) = (1, 1)%N.
Proof. intros env v. repeat split. Qed.

(* is_ok sits right after the payload: {payload, is_ok} *)
Theorem option_flag_offset : forall p,
  let '(s, a) := size_align (rust_prim_abi p) in
  offsets [AUni [rust_prim_abi p; AUnit]; ABool] = [0%N; s] /\
  size_align (result_abi (rust_prim_abi p) AUnit) = (round_up (s + 1) a, a).
Proof. destruct p; vm_compute; split; reflexivity. Qed.

(* an absent optional pointer is NULL: Option<&T> / Option<Box<T>> are plain pointers on both sides *)
Theorem pointer_options_are_pointers : forall env,
  ffi_param_abi env POOpt = APtr /\ ffi_ret_abi env ROptBox = APtr /\ ffi_ret_abi env ROptRef = APtr /\
  c_param_ty POOpt = "const Op*" /\ (forall m, c_ret_ty m ROptBox = "Op*").
Proof. intros env. repeat split. Qed.

Example layout_example :
  size_align (ARec [AI 2 true; ARec [AI 1 false; AI 4 false]; AI 4 true; AF 8; ARec [AUni [AI 1 false]; ABool]]) = (32, 8)%N /\
  offsets [AI 2 true; ARec [AI 1 false; AI 4 false]; AI 4 true; AF 8; ARec [AUni [AI 1 false]; ABool]] = [0; 4; 12; 16; 24]%N.
Proof. vm_compute. split; reflexivity. Qed.

(* C07 (Tie A): the primitive tables of the Dart and Kotlin formatters *)
Theorem dart_prim_agrees : forall p, dart_name_abi (dart_prim_ffi p) = Some (rust_prim_abi p).
Proof. destruct p; vm_compute; reflexivity. Qed.

Theorem kotlin_prim_agrees_width : forall p,
  option_map erase_sign (kt_name_abi (kt_prim_ffi p)) = Some (erase_sign (rust_prim_abi p)) /\
  option_map erase_sign (kt_name_abi (kt_prim_native p)) = Some (erase_sign (rust_prim_abi p)).
Proof. destruct p; vm_compute; split; reflexivity. Qed.

(* struct fields and result / option records (fmt_primitive_type_native) have the width of the Rust primitive under the JNA
   field rule: in particular bool is not declared Boolean there *)
Lemma kotlin_field_prim_agrees_width p :
  option_map erase_sign (kt_field_abi (kt_prim_native p)) = Some (erase_sign (rust_prim_abi p)).
Proof. destruct p; vm_compute; reflexivity. Qed.

(* the parameter spelling of bool would be wrong as a field: 4 bytes against 1 *)
Lemma kotlin_boolean_field_is_wide :
  option_map (fun a => fst (size_align a)) (kt_field_abi "Boolean") = Some 4%N /\ fst (size_align (rust_prim_abi PBool)) = 1%N.
Proof. split; vm_compute; reflexivity. Qed.
