(* C05: the gate (Gate/Model.v) accepts exactly what the documented rules (Gate/Spec.v) allow. One equivalence per
   arm of the gate, each by cases on the shape of the type: lot_iff (outputs), cb_param_ok_iff (callback parameters),
   lt_iff (inputs; the only one that needs induction, for callback return types), lret_iff (return types, on top of
   lot_iff); then the position of DiplomatWrite. The small lemmas in front turn the gate's boolean side conditions
   into the implications the rules state. *)
From Coq Require Import List Bool.
Import ListNotations.
From DV Require Import Base.Lists Gate.Model Gate.Spec.

Lemma is_opaque_true t : is_opaque t = true -> t = TNamed NOpaque.
Proof. destruct t as [| |[]| | | | | | | | | |]; cbn; congruence. Qed.

Lemma is_unit_iff t : is_unit t = true <-> t = TUnit.
Proof. split; [destruct t; (discriminate || reflexivity)|intros ->; reflexivity]. Qed.

Lemma negb_andb_negb s d : negb (s && negb d) = true <-> (s = true -> d = true).
Proof. destruct s, d; cbn; intuition congruence. Qed.

Lemma negb_orb_imp s f : negb s || f = true <-> (s = true -> f = true).
Proof. destruct s, f; cbn; intuition congruence. Qed.

Theorem lot_iff fl s r t : lot fl s r t = true <-> OutOk fl s r t.
Proof.
  split.
  - destruct t as [| |n|t'|t'|d p| | | |h ? ?|h ? ?| |]; cbn [lot]; intros H; try discriminate H.
    + (* primitive *) constructor.
    + (* Ordering *) constructor. now apply negb_true_iff.
    + (* named types: a zero-sized struct only as an Option/Result arm *)
      destruct n; try discriminate H; constructor. exact H.
    + (* &Opaque *) apply is_opaque_true in H as ->. constructor.
    + (* Box<Opaque> *) apply is_opaque_true in H as ->. constructor.
    + (* Option, by payload *)
      destruct p as [| |[]|t|t| | | | | | | |]; cbn [lot] in H; rewrite ?andb_true_r in H; try discriminate H.
      (* a primitive, struct, out-struct, zero-sized struct or enum: a value payload *)
      1-5: apply andb_true_iff in H as [Hs Ho]; apply OOptValue; [auto using value_payload|exact Ho|now apply negb_andb_negb].
      (* &Opaque and Box<Opaque>: the std spelling only *)
      all: apply andb_true_iff in H as [->%is_opaque_true Hd]; destruct d; [discriminate Hd|constructor].
    + (* str, borrowed *) destruct h; [constructor|discriminate H].
    + (* primitive slice, borrowed *) destruct h; [constructor|discriminate H].
  - destruct 1 as [|Hs| | | |Hr| | | | |d p Hp Ho Hs| |]; subst; cbn [lot is_opaque]; try reflexivity.
    (* what is left is OOptValue: one evaluation per payload *)
    apply negb_andb_negb in Hs. destruct Hp as [[]|[->| ->]]; cbn [lot]; now rewrite Ho, Hs.
Qed.

Lemma cb_param_borrows_iff t : cb_param_borrows t = true <-> borrows t.
Proof.
  split.
  - destruct t as [| |?|t'|?|d []|? ?| | |? ? ?|? ? ?|?|? ?]; cbn; try discriminate; intros _; [left|right]; eauto.
  - intros [[t' ->]|[d [t' ->]]]; reflexivity.
Qed.

Lemma cb_param_ok_iff fl t : cb_param_ok fl t = true <-> CbParamOk fl t.
Proof.
  unfold cb_param_ok, CbParamOk.
  now rewrite andb_true_iff, lot_iff, orb_true_iff, negb_true_iff, <- not_true_iff_false, cb_param_borrows_iff.
Qed.

Lemma lt_opt_slice fl s d t : slice_like t -> lt fl s (TOption d t) = f_option fl && lt fl s t.
Proof. destruct 1; cbn [lt]; try reflexivity. now rewrite andb_true_r. Qed.

(* Coq's own induction on ty is enough: both sides recurse only into an option's payload and a callback's return type
   (callback parameters are outputs) *)
Theorem lt_iff fl t : forall s, lt fl s t = true <-> InOk fl s t.
Proof.
  induction t as [| |n|t' _|t' _|d p IH|a _ b _| | |h st dd|h st dd|dd|ps rr IH]; intros s.
  (* first, in each direction, the shapes the gate rejects outright or accepts by a rule without premises *)
  all: split; intros H; [try discriminate H; try solve [constructor]|try solve [inversion H; reflexivity]].
  - (* named types, from lt *) destruct n; try discriminate H; constructor.
  - (* &Opaque, from lt *) apply is_opaque_true in H as ->. constructor.
  - (* Option, from lt: by payload *)
    destruct p as [| |[]|t| | | | | | | | |]; cbn [lt] in H; rewrite ?andb_true_r, ?andb_false_r in H; try discriminate H.
    (* a primitive, a struct, an enum: a value payload *)
    1-3: apply andb_true_iff in H as [Hs Ho]; apply IOptValue; [constructor|exact Ho|now apply negb_andb_negb].
    (* &Opaque: the std spelling only *)
    1: apply andb_true_iff in H as [->%is_opaque_true Hd]; destruct d; [discriminate Hd|constructor].
    (* a string, a primitive slice: the slice must be accepted itself *)
    1-2: apply andb_true_iff in H as [Ho Hp]; apply IOptSlice; [constructor|exact Ho|now apply IH].
    (* a list of strings *)
    apply IOptSlice; [constructor|exact H|constructor].
  - (* Option, from InOk *)
    inversion H as [| | | | |? ? Hv Ho Hs|? ? Hv Ho Hi| | | |]; subst.
    + (* IOptRefOpaque *) reflexivity.
    + (* IOptValue *) apply negb_andb_negb in Hs. destruct Hv; cbn [lt]; now rewrite Ho, Hs.
    + (* IOptSlice *) rewrite lt_opt_slice, Ho by assumption. now apply IH.
  - (* str, from lt *) constructor. now apply negb_orb_imp.
  - (* str, from InOk *) inversion H. now apply negb_orb_imp.
  - (* primitive slice, from lt *) constructor. now apply negb_orb_imp.
  - (* primitive slice, from InOk *) inversion H. now apply negb_orb_imp.
  - (* callback, from lt *)
    cbn [lt] in H. apply andb_true_iff in H as [[[Hc Hs]%andb_true_iff Hp]%andb_true_iff Hr].
    constructor; [exact Hc|now apply negb_true_iff|now apply (forallb_Forall _ _ _ (cb_param_ok_iff fl))|].
    apply orb_true_iff in Hr as [Hr|Hr]; [left; now apply is_unit_iff|right; now apply IH].
  - (* callback, from InOk *)
    inversion H as [| | | | | | | | | |? ? Hc -> Hp Hr]; subst. cbn [lt]. rewrite Hc. cbn [negb andb].
    apply andb_true_iff. split; [now apply (forallb_Forall _ _ _ (cb_param_ok_iff fl))|].
    destruct Hr as [->|Hr]; [reflexivity|]. apply orb_true_iff. right. now apply IH.
Qed.

Lemma unit_or_out_iff fl a : is_unit a || lot fl false true a = true <-> a = TUnit \/ OutOk fl false true a.
Proof. now rewrite orb_true_iff, is_unit_iff, lot_iff. Qed.

Theorem lret_iff fl t : lret fl t = true <-> RetOk fl t.
Proof.
  split.
  - destruct t as [| |n|t'|t'|d v|a b| | |h st dd|h st dd|dd|ps rr]; cbn [lret]; intros H.
    (* everything but Option, Result and unit is an output *)
    all: try (apply ROther; [intros; discriminate..|now apply lot_iff]).
    + (* Option: of a pointer, of unit, or else of an output *)
      destruct v as [| | |p|p| | | | | | | |]; try (apply ROptVal; [intros; split; discriminate|discriminate|now apply lot_iff]).
      * (* Option<&T>: a nullable pointer *) apply ROptPtr; [eauto|now apply lot_iff].
      * (* Option<Box<T>>: likewise *) apply ROptPtr; [eauto|now apply lot_iff].
      * (* Option<()> *) constructor.
    + (* Result *) apply andb_true_iff in H as [Hok Herr]. constructor; now apply unit_or_out_iff.
    + (* unit *) constructor.
  - destruct 1 as [|ok err Ho He|d|d v [p [->| ->]] Ho|d v Hp Hu Ho|t Hr Hopt Hu Ho]; cbn [lret]; try reflexivity.
    + (* RResult *) apply andb_true_iff. split; now apply unit_or_out_iff.
    + (* ROptPtr, a reference *) now apply lot_iff.
    + (* ROptPtr, a box *) now apply lot_iff.
    + (* ROptVal: lret looks at the payload unless it is a pointer or unit, which the premises exclude *)
      destruct v as [| | |p|p| | | |  | | | |]; try (now apply lot_iff).
      * (* a reference: excluded by Hp *) now destruct (Hp p) as [[] _].
      * (* a box: excluded by Hp *) now destruct (Hp p) as [_ []].
      * (* unit: excluded by Hu *) now destruct Hu.
    + (* ROther: lret looks at t itself unless it is an Option, a Result or unit, which the premises exclude *)
      destruct t as [| | | | |d v|a b| | | | | |]; try (now apply lot_iff).
      * (* an Option: excluded by Hopt *) now destruct (Hopt d v).
      * (* a Result: excluded by Hr *) now destruct (Hr a b).
      * (* unit: excluded by Hu *) now destruct Hu.
Qed.

(* R7: a DiplomatWrite anywhere but last is rejected; last, it is the writer *)
Lemma write_not_last fl a b : b <> [] -> accept_params fl (a ++ TWrite :: b) = false.
Proof.
  assert (F : forall l l', forallb (lt fl false) (l ++ TWrite :: l') = false)
    by (intros; rewrite forallb_app; apply andb_false_r).
  intros Hb. destruct (exists_last Hb) as (b' & y & ->). unfold accept_params.
  rewrite rev_app_distr. cbn [rev]. rewrite rev_app_distr, <- !app_assoc. cbn [rev app].
  (* accept_params looks at the last parameter y: if it is a writer the others are checked, otherwise all are. Either
     way the TWrite in the middle is among those checked (F), whatever y is *)
  destruct y; apply F.
Qed.

Theorem write_only_last fl ps :
  accept_params fl (ps ++ [TWrite]) = forallb (lt fl false) ps /\
  (forall a b, accept_params fl (a ++ TWrite :: b ++ [TPrim]) = false).
Proof.
  split; [|intros a b; apply write_not_last; now destruct b].
  unfold accept_params. rewrite rev_app_distr. apply forallb_rev.
Qed.

Example gate_examples :
  let fl := mkFlags true true true false in
  accept fl PParam (TOption false (TRef (TNamed NOpaque))) = true /\ accept fl PParam (TOption true (TRef (TNamed NOpaque))) = false /\
  accept fl PParam (TBox (TNamed NOpaque)) = false /\ accept fl PReturn (TBox (TNamed NOpaque)) = true /\
  accept fl PStructField (TOption false TPrim) = false /\ accept fl PStructField (TOption true TPrim) = true /\
  accept fl PReturn (TResult (TNamed NZst) TUnit) = true /\ accept fl PParam (TResult TPrim TPrim) = false /\
  accept (mkFlags false true true false) PParam (TOption false (TPrimSlice true false false)) = false /\
  accept fl PCbParam (TRef (TNamed NOpaque)) = false /\ accept (mkFlags true true true true) PCbParam (TRef (TNamed NOpaque)) = true.
Proof. repeat split. Qed.
