(* C04 / C05 — facts about the lifetime-lowering state machine of Lifetimes/Elision.v.  The lowering of a list of written
   lifetimes has a closed form ([map_st_base], [map_st_param] over [assign] / [next]; [fold_visit] for the elision
   source), and everything else is carried from there through the layers of the traversal (borrow, generics, one type,
   a list of types, the signature) by three relations that compose along it: [counts] (parameter phase: what the
   source has visited), [reads] (return phase: a flat [map_opt] over the positions, the source only read) and [step]
   (the range invariant); one lemma per layer each.  The theorems of C04 / C05 / C15 follow from these, those about
   spellings from [spec_edge_same]. *)
From Coq Require Import List Bool Lia.
Import ListNotations.
From DV Require Import Base.Lists Base.Closure gen.Tables Lifetimes.Model Lifetimes.Elision Lifetimes.Spec
  Lifetimes.Proofs.

Lemma map_opt_ext {A B} (f g : A -> option B) l : (forall a, f a = g a) -> map_opt f l = map_opt g l.
Proof. intros E; induction l as [|a r IH]; cbn; [|rewrite E, IH]; reflexivity. Qed.
Lemma map_opt_map {A B C} (f : B -> option C) (g : A -> B) l : map_opt f (map g l) = map_opt (fun a => f (g a)) l.
Proof. induction l as [|a r IH]; cbn; [|rewrite IH]; reflexivity. Qed.
Lemma map_opt_app {A B} (f : A -> option B) l1 l2 :
  map_opt f (l1 ++ l2) = match map_opt f l1, map_opt f l2 with Some a, Some b => Some (a ++ b) | _, _ => None end.
Proof.
  induction l1 as [|a r IH]; cbn; [destruct (map_opt f l2); reflexivity|].
  rewrite IH. destruct (f a), (map_opt f r), (map_opt f l2); reflexivity.
Qed.
Lemma map_opt_None {A B} (f : A -> option B) l : map_opt f l = None <-> exists a, In a l /\ f a = None.
Proof.
  rewrite <- Exists_exists. induction l as [|x r IH]; cbn; [split; [discriminate|intros H; inversion H]|].
  rewrite Exists_cons, <- IH. destruct (f x), (map_opt f r); intuition discriminate.
Qed.
Lemma map_opt_Forall {A B} (P : A -> Prop) (Q : B -> Prop) (f : A -> option B) l hs :
  (forall a b, P a -> f a = Some b -> Q b) -> map_opt f l = Some hs -> Forall P l -> Forall Q hs.
Proof.
  intros PQ. revert hs; induction l as [|x r IH]; intros hs; cbn; [intros [= <-]; constructor|].
  destruct (f x) as [y|] eqn:E, (map_opt f r); try discriminate.
  intros [= <-] F. inversion F; subst. eauto.
Qed.
Lemma map_opt_In {A B} (f : A -> option B) l hs a b : map_opt f l = Some hs -> In a l -> f a = Some b -> In b hs.
Proof.
  revert hs; induction l as [|x r IH]; intros hs; cbn; [tauto|].
  destruct (f x) as [y|] eqn:E, (map_opt f r); try discriminate.
  intros [= <-] [->|H] F; [left; congruence|right; eauto].
Qed.

(* what BaseLifetimeLowerer hands out for [ls] from counter [k]: a fresh index for every anonymous lifetime *)
Fixpoint assign (k : nat) (ls : list alt) : list lt :=
  match ls with
  | [] => []
  | AStatic :: r => Static :: assign k r
  | ANamed i :: r => Lt i :: assign k r
  | AAnon :: r => Lt k :: assign (S k) r
  end.
Definition is_anon (a : alt) : bool := match a with AAnon => true | _ => false end.
(* LifetimeEnv::num_lifetimes after [ls] were lowered from counter [k] *)
Fixpoint next (k : nat) (ls : list alt) : nat :=
  match ls with
  | [] => k
  | AAnon :: r => next (S k) r
  | _ :: r => next k r
  end.

Lemma map_st_base s ls :
  map_st base_lower s ls = (assign (num s) ls, mkSt (src s) (cache s) (next (num s) ls)).
Proof. revert s; induction ls as [|[] r IH]; intros [e c k]; cbn; rewrite ?IH; reflexivity. Qed.

Lemma map_st_param s ls :
  map_st param_lower s ls =
  (assign (num s) ls, mkSt (fold_left visit (assign (num s) ls) (src s)) (cache s) (next (num s) ls)).
Proof. revert s; induction ls as [|[] r IH]; intros [e c k]; cbn; rewrite ?IH; reflexivity. Qed.

Lemma next_le k ls : k <= next k ls.
Proof. revert k; induction ls as [|[] r IH]; intros k; cbn; auto. specialize (IH (S k)). lia. Qed.

Lemma assign_length k ls : length (assign k ls) = length ls.
Proof. revert k; induction ls as [|[] r IH]; intros k; cbn; auto. Qed.

Lemma param_borrow_map s b hb s1 :
  param_borrow s b = (hb, s1) -> map_st param_lower s (opt_list b) = (opt_list hb, s1).
Proof. destruct b as [l|]; cbn; [destruct (param_lower s l)|]; intros [= <- <-]; reflexivity. Qed.

Lemma self_or_new_src s ls hs s1 : self_lifetimes_or_new s ls = (hs, s1) -> src s1 = src s.
Proof. unfold self_lifetimes_or_new. destruct (cache s); [|rewrite map_st_base]; intros [= _ <-]; reflexivity. Qed.

Lemma pad_length ls ndef : ndef <= length (pad ls ndef).
Proof. unfold pad. rewrite app_length, repeat_length. lia. Qed.
Lemma pad_idem ls ndef : ndef <= length ls -> pad ls ndef = ls.
Proof. intros H. unfold pad. replace (ndef - length ls) with 0 by lia. apply app_nil_r. Qed.

Definition classify (hs : list lt) : esrc :=
  match hs with [] => NoBorrows | [h] => OneParam h | _ => Multiple end.
(* the receiver is never displaced; otherwise the first lifetime visited is the source until a second one is *)
Lemma fold_visit hs : forall e, fold_left visit hs e =
  match e with SelfParam _ => e | NoBorrows => classify hs | _ => match hs with [] => e | _ => Multiple end end.
Proof. induction hs as [|h r IH]; intros []; cbn; rewrite ?IH; try reflexivity; now destruct r. Qed.

(* the lowered lifetimes sitting at the positions that count (Elision.sty_positions), read off the lowered type *)
Definition pos1 (t : sty) (p : ty) : list lt :=
  match t, p with
  | SOpaque sp _ _ _ _ _, TOpaque _ _ b _ args => opt_list b ++ (if sp then [] else args)
  | SSlice _ _, TSlice _ b => opt_list b
  | SStruct sp _ _ _ _, TStruct _ _ args => if sp then [] else args
  | _, _ => []
  end.
Fixpoint lowered_positions (ts : list sty) (ps : list ty) : list lt :=
  match ts, ps with
  | t :: tr, p :: pr => pos1 t p ++ lowered_positions tr pr
  | _, _ => []
  end.

(* what a stretch of the parameter phase, from state [s] to [s1], does to the elision source: it visits the lowered
   lifetimes [c] of the written positions [ws] that count, one for one *)
Definition counts (s : st) (ws : list alt) (c : list lt) (s1 : st) : Prop :=
  src s1 = fold_left visit c (src s) /\ length c = length ws.

Lemma counts_nil s s1 : src s1 = src s -> counts s [] [] s1.
Proof. now split. Qed.
Lemma counts_app s w1 c1 s0 w2 c2 s1 :
  counts s w1 c1 s0 -> counts s0 w2 c2 s1 -> counts s (w1 ++ w2) (c1 ++ c2) s1.
Proof. intros [E1 L1] [E2 L2]. split; [rewrite fold_left_app; congruence | rewrite !app_length; congruence]. Qed.

Lemma map_param_counts s ls hs s1 : map_st param_lower s ls = (hs, s1) -> counts s ls hs s1.
Proof. rewrite map_st_param. intros [= <- <-]. split; [reflexivity|apply assign_length]. Qed.

Lemma param_borrow_counts s b hb s1 : param_borrow s b = (hb, s1) -> counts s (opt_list b) (opt_list hb) s1.
Proof. intros H. apply map_param_counts, param_borrow_map, H. Qed.

Lemma param_generics_counts s ls ndef (sp : bool) hs s1 :
  param_generics s ls ndef sp = (hs, s1) -> counts s (if sp then [] else pad ls ndef) (if sp then [] else hs) s1.
Proof.
  destruct sp; cbn [param_generics]; [|apply map_param_counts].
  intros H. apply counts_nil, (self_or_new_src _ _ _ _ H).
Qed.

Lemma lower_param_counts s t p s1 : lower_param s t = (p, s1) -> counts s (sty_positions t) (pos1 t p) s1.
Proof.
  destruct t as [|sp opt b tid args ndef|opt b|sp opt tid args ndef]; cbn [lower_param].
  - intros [= <- <-]. now apply counts_nil.
  - destruct (param_borrow s b) as [hb s0] eqn:Eb, (param_generics s0 args ndef sp) as [hs s2] eqn:Eg. intros [= <- <-].
    eapply counts_app; [eapply param_borrow_counts, Eb | eapply param_generics_counts, Eg].
  - destruct (param_borrow s b) as [hb s0] eqn:Eb. intros [= <- <-]. eapply param_borrow_counts, Eb.
  - destruct (param_generics s args ndef sp) as [hs s0] eqn:Eg. intros [= <- <-]. eapply param_generics_counts, Eg.
Qed.

Lemma lower_params_counts ts : forall s ps s1,
  lower_params s ts = (ps, s1) -> counts s (positions ts) (lowered_positions ts ps) s1.
Proof.
  induction ts as [|t r IH]; intros s ps s1; cbn [lower_params].
  - intros [= <- <-]. now apply counts_nil.
  - destruct (lower_param s t) as [p s0] eqn:Ep, (lower_params s0 r) as [pr s2] eqn:Er. intros [= <- <-].
    eapply counts_app; [eapply lower_param_counts, Ep | eapply IH, Er].
Qed.

Definition self_borrow (ps0 : list ty) : lt :=
  match ps0 with [TOpaque _ _ (Some h) _ _] => h | _ => Static end.

(* `&self` decides; otherwise exactly one lifetime position among the parameters (lifetimes of `Self` not counted) *)
Theorem elision_source_rule g ps0 s0 ps s1 :
  lower_self (s_n g) (s_self g) = (ps0, s0) ->
  lower_params s0 (s_params g) = (ps, s1) ->
  src s1 = match s_self g with
           | SelfRef _ _ _ => SelfParam (self_borrow ps0)
           | _ => classify (lowered_positions (s_params g) ps)
           end.
Proof.
  intros Hs Hp. destruct (lower_params_counts _ _ _ _ Hp) as [-> _].
  unfold lower_self in Hs. destruct (s_self g) as [|l tid args|tid args].
  - injection Hs as <- <-. apply fold_visit.
  - destruct (base_lower _ l) as [h s2], (self_lifetimes_or_new _ args) as [hs s3] eqn:E.
    injection Hs as <- <-. rewrite (self_or_new_src _ _ _ _ E). apply fold_visit.
  - destruct (self_lifetimes_or_new _ args) as [hs s3] eqn:E.
    injection Hs as <- <-. rewrite (self_or_new_src _ _ _ _ E). apply fold_visit.
Qed.

Definition has_source (e : esrc) : bool := match e with SelfParam _ | OneParam _ => true | _ => false end.
Definition elision_source (g : ssig) : esrc :=
  src (snd (lower_params (snd (lower_self (s_n g) (s_self g))) (s_params g))).

(* the three phases of lower_sig, with the state between the parameters and the return type named *)
Lemma lower_sig_phases g : exists ps0 s0 ps s1,
  lower_self (s_n g) (s_self g) = (ps0, s0) /\ lower_params s0 (s_params g) = (ps, s1) /\ elision_source g = src s1 /\
  lower_sig g = match lower_rets s1 (s_ret g) with
                | Some (rs, s2) => Some (mkSig (s_n g) (s_decl g) (ps0 ++ ps) (marks (s_ret g) rs), num s2)
                | None => None
                end.
Proof.
  unfold elision_source, lower_sig. destruct (lower_self _ _) as [ps0 s0]. cbn [snd].
  destruct (lower_params s0 _) as [ps s1] eqn:Ep. now exists ps0, s0, ps, s1.
Qed.

(* the state machine finds a source exactly when Rust's rule (Elision.rust_target) names one *)
Theorem source_iff_rust_target g :
  has_source (elision_source g) = match rust_target (s_self g) (s_params g) with TSelf | TPos _ => true | _ => false end.
Proof.
  destruct (lower_sig_phases g) as (ps0 & s0 & ps & s1 & Es & Ep & -> & _).
  rewrite (elision_source_rule _ _ _ _ _ Es Ep). unfold rust_target.
  destruct (lower_params_counts _ _ _ _ Ep) as [_ L].
  (* without `&self` both sides ask whether there are no, one or more positions, and by L there are as many *)
  destruct (s_self g); cbn; auto;
    destruct (lowered_positions (s_params g) ps) as [|x [|y r]], (positions (s_params g)) as [|a [|b q]]; cbn in *; auto; lia.
Qed.

(* the return phase reads the source and leaves it alone *)
Lemma map_ret_lower_src s s' ls : src s' = src s -> map_opt (ret_lower s') ls = map_opt (ret_lower s) ls.
Proof. intros E. apply map_opt_ext. intros a. unfold ret_lower. now rewrite E. Qed.

Lemma ret_borrow_map s b : map_opt (ret_lower s) (opt_list b) = option_map opt_list (ret_borrow s b).
Proof. destruct b as [l|]; cbn; [destruct (ret_lower s l)|]; reflexivity. Qed.

Definition ret_positions (t : sty) : list alt :=
  match t with
  | SPrim => []
  | SOpaque sp _ b _ args ndef => opt_list b ++ (if sp then [] else pad args ndef)
  | SSlice _ b => opt_list b
  | SStruct sp _ _ args ndef => if sp then [] else pad args ndef
  end.
Definition ret_elided (ts : list sty) : bool := existsb is_anon (flat_map ret_positions ts).

(* [r], the outcome of lowering a stretch of the return type from state [s], is that of [ret_lower s] on the written
   positions [ws] that count; [c] reads their lowered lifetimes off the result *)
Definition reads {R} (s : st) (ws : list alt) (r : option (R * st)) (c : R -> list lt) : Prop :=
  match r with
  | Some (x, s1) => src s1 = src s /\ map_opt (ret_lower s) ws = Some (c x)
  | None => map_opt (ret_lower s) ws = None
  end.

Lemma ret_generics_reads s ls ndef (sp : bool) :
  reads s (if sp then [] else pad ls ndef) (ret_generics s ls ndef sp) (fun hs => if sp then [] else hs).
Proof.
  unfold reads, ret_generics. destruct sp; [|destruct (map_opt _ _); auto].
  destruct (self_lifetimes_or_new s ls) as [hs s1] eqn:E. split; [apply (self_or_new_src _ _ _ _ E)|reflexivity].
Qed.

Lemma lower_ret1_reads s t : reads s (ret_positions t) (lower_ret1 s t) (pos1 t).
Proof.
  destruct t as [|sp opt b tid args ndef|opt b|sp opt tid args ndef]; cbn [lower_ret1 ret_positions].
  - now split.
  - unfold reads. rewrite map_opt_app, ret_borrow_map. pose proof (ret_generics_reads s args ndef sp) as G.
    destruct (ret_borrow s b) as [hb|]; [|reflexivity].
    destruct (ret_generics s args ndef sp) as [[hs s1]|]; cbn in *.
    + destruct G as [E ->]. auto.
    + now rewrite G.
  - unfold reads. rewrite ret_borrow_map. destruct (ret_borrow s b); cbn; auto.
  - pose proof (ret_generics_reads s args ndef sp) as G. destruct (ret_generics s args ndef sp) as [[hs s1]|]; exact G.
Qed.

Lemma lower_rets_reads ts : forall s, reads s (flat_map ret_positions ts) (lower_rets s ts) (lowered_positions ts).
Proof.
  induction ts as [|t r IH]; intros s; cbn [lower_rets flat_map]; [now split|].
  unfold reads. rewrite map_opt_app. pose proof (lower_ret1_reads s t) as H1.
  destruct (lower_ret1 s t) as [[p s1]|]; cbn in H1; [|now rewrite H1]. destruct H1 as [E ->].
  specialize (IH s1). unfold reads in IH. rewrite (map_ret_lower_src _ _ _ E) in IH.
  destruct (lower_rets s1 r) as [[pr s2]|]; [|now rewrite IH]. destruct IH as [E2 ->]. split; [congruence|reflexivity].
Qed.

Lemma ret_lower_target s h : ret_lower s (alt_of_lt h) = Some h.
Proof. destruct h; auto. Qed.

Lemma ret_lower_spell s h x :
  ret_lower s AAnon = Some h -> ret_lower s (spell (alt_of_lt h) x) = ret_lower s x.
Proof. intros H. destruct x; cbn [spell]; auto. rewrite H. apply ret_lower_target. Qed.

Lemma ret_generics_spell s h args ndef (sp : bool) :
  ret_lower s AAnon = Some h ->
  ret_generics s (if sp then args else map (spell (alt_of_lt h)) (pad args ndef)) ndef sp = ret_generics s args ndef sp.
Proof.
  intros H. unfold ret_generics. destruct sp; auto.
  rewrite pad_idem by (rewrite map_length; apply pad_length).
  rewrite map_opt_map, (map_opt_ext _ (ret_lower s)); auto using ret_lower_spell.
Qed.

Lemma ret_borrow_spell s h b :
  ret_lower s AAnon = Some h -> ret_borrow s (option_map (spell (alt_of_lt h)) b) = ret_borrow s b.
Proof. intros H. destruct b as [l|]; cbn; auto. rewrite ret_lower_spell; auto. Qed.

Lemma lower_ret1_spell s h t :
  ret_lower s AAnon = Some h -> lower_ret1 s (spell_ty (alt_of_lt h) t) = lower_ret1 s t.
Proof.
  intros H. destruct t; cbn [spell_ty lower_ret1]; rewrite ?ret_borrow_spell, ?ret_generics_spell; auto.
Qed.

Lemma lower_rets_spell ts : forall s h,
  ret_lower s AAnon = Some h -> lower_rets s (map (spell_ty (alt_of_lt h)) ts) = lower_rets s ts.
Proof.
  induction ts as [|t r IH]; intros s h H; cbn [map lower_rets]; auto.
  rewrite lower_ret1_spell by auto. pose proof (lower_ret1_reads s t) as R.
  destruct (lower_ret1 s t) as [[p s1]|]; auto. destruct R as [E _].
  rewrite IH; auto. unfold ret_lower in *. now rewrite E.
Qed.

(* spellings differ in what the AST records as implied bounds, nothing else: compare up to Model.ty's first flag *)
Definition forget (t : ty) : ty :=
  match t with TOpaque _ opt b tid args => TOpaque false opt b tid args | _ => t end.
Definition forget_sig (m : msig) : msig :=
  mkSig (m_n m) (m_decl m) (map forget (m_params m)) (map forget (m_ret m)).

Lemma forget_mark t p : forget (mark t p) = forget p.
Proof. destruct t as [|sp opt [[| |]|] tid args ndef| |], p; auto. Qed.
Lemma forget_marks ts : forall ps, map forget (marks ts ps) = map forget ps.
Proof. induction ts as [|t r IH]; intros [|p pr]; cbn; auto. rewrite forget_mark, IH. auto. Qed.

(* writing the source lifetime out in place of every elided lifetime of the return type changes the lowered
   signature in nothing but that flag: the analysis of `fn f(&'a self, x: &'b T) -> &R` runs on the same lifetimes as
   that of `-> &'a R` *)
Theorem elided_return_is_source g h :
  elision_source g = SelfParam h \/ elision_source g = OneParam h ->
  option_map (fun mk => (forget_sig (fst mk), snd mk)) (lower_sig (spell_ret (alt_of_lt h) g)) =
  option_map (fun mk => (forget_sig (fst mk), snd mk)) (lower_sig g).
Proof.
  unfold elision_source, lower_sig, spell_ret. cbn [s_n s_self s_params s_ret s_decl].
  destruct (lower_self (s_n g) (s_self g)) as [ps0 s0]. cbn [snd]. destruct (lower_params s0 (s_params g)) as [ps s1]. cbn [snd].
  intros H. rewrite lower_rets_spell.
  - destruct (lower_rets s1 (s_ret g)) as [[rs s2]|]; cbn; auto.
    unfold forget_sig; cbn. rewrite !forget_marks. auto.
  - unfold ret_lower. destruct H as [H|H]; rewrite H; auto.
Qed.

(* only an anonymous lifetime can fail to be lowered, and only when there is no source *)
Lemma ret_lower_None s a : ret_lower s a = None <-> is_anon a = true /\ has_source (src s) = false.
Proof. destruct a; cbn; [easy..|]. destruct (src s); cbn; easy. Qed.

Lemma map_ret_lower_none s ls :
  map_opt (ret_lower s) ls = None <-> existsb is_anon ls = true /\ has_source (src s) = false.
Proof.
  rewrite map_opt_None, existsb_exists. split.
  - intros (a & Hin & [A N]%ret_lower_None). eauto.
  - intros [(a & Hin & A) N]. exists a. split; [exact Hin|]. now apply ret_lower_None.
Qed.

Lemma lower_rets_none s ts : lower_rets s ts = None <-> ret_elided ts = true /\ has_source (src s) = false.
Proof.
  unfold ret_elided. rewrite <- map_ret_lower_none. pose proof (lower_rets_reads ts s) as R.
  destruct (lower_rets s ts) as [[rs s1]|]; [destruct R as [_ ->]|]; easy.
Qed.

(* the two panics of ReturnLifetimeLowerer fire exactly on signatures rustc itself refuses (E0106): an elided
   lifetime in the return type while Rust's rule names no source *)
Theorem lowering_panics_iff g :
  lower_sig g = None <->
  (ret_elided (s_ret g) = true /\
   match rust_target (s_self g) (s_params g) with TNone | TAmbiguous => True | _ => False end).
Proof.
  pose proof (source_iff_rust_target g) as R.
  destruct (lower_sig_phases g) as (ps0 & s0 & ps & s1 & _ & _ & Hs & ->). rewrite Hs in R.
  transitivity (lower_rets s1 (s_ret g) = None); [destruct (lower_rets s1 (s_ret g)) as [[rs s2]|]; easy|].
  rewrite lower_rets_none, R. destruct (rust_target _ _); intuition congruence.
Qed.

Lemma ref_ops_forget n t : ref_ops n (forget t) = ref_ops n t.
Proof. destruct t; auto. Qed.
Lemma ty_use_forget t : ty_use (forget t) = ty_use t.
Proof. destruct t; auto. Qed.
Lemma forget_idem t : forget (forget t) = forget t.
Proof. destruct t; auto. Qed.
Lemma forget_sig_idem m : forget_sig (forget_sig m) = forget_sig m.
Proof. unfold forget_sig; cbn. rewrite !map_map. f_equal; apply map_ext, forget_idem. Qed.

Lemma spec_ops_forget m : spec_ops (forget_sig m) = spec_ops m.
Proof.
  unfold spec_ops, forget_sig; cbn. f_equal. rewrite <- map_app, flat_map_map.
  apply flat_map_ext, ref_ops_forget.
Qed.

(* [forget_sig m = forget_sig m']: the two signatures differ in that flag only.  The hypothesis is symmetric, so one
   direction is enough *)
Lemma rust_edge_same ds m m' u v : forget_sig m = forget_sig m' -> rust_edge ds m u v -> rust_edge ds m' u v.
Proof.
  intros E [u' v' H|t tid args x y u' v' Hin Hu Hw Hx Hy].
  - apply re_own. now rewrite <- spec_ops_forget, <- E, spec_ops_forget.
  - apply (in_map forget) in Hin. rewrite map_app in Hin. injection E as _ _ Ep Er.
    rewrite Ep, Er, <- map_app in Hin. apply in_map_iff in Hin as (t' & Et & Hin).
    apply (re_use ds m' t' tid args x y); auto. now rewrite <- ty_use_forget, Et, ty_use_forget.
Qed.

(* the type at a position of the other signature is the same, up to the flag if it is an opaque *)
Lemma same_nth_error ps ps' p t : map forget ps = map forget ps' -> nth_error ps p = Some t ->
  match t with
  | TOpaque _ opt b tid args => exists sp', nth_error ps' p = Some (TOpaque sp' opt b tid args)
  | _ => nth_error ps' p = Some t
  end.
Proof.
  intros E H. destruct (map_eq_nth_error _ _ _ _ _ E H) as (t' & -> & Et).
  destruct t, t'; try discriminate Et; inversion Et; subst; eauto.
Qed.

Lemma spec_edge_same ds m m' r e : forget_sig m = forget_sig m' -> spec_edge ds m r e -> spec_edge ds m' r e.
Proof.
  intros E. pose proof (f_equal m_params E) as Ep. cbn in Ep.
  assert (O : forall u, outlives ds m r u -> outlives ds m' r u).
  { intros u. apply clos_rt1n_mono. intros x y. now apply rust_edge_same. }
  destruct e as [p|p|p slot opt|p]; cbn [spec_edge]; auto.
  - intros (sp & opt & b & tid & args & u & Hn & Hi & Ho).
    apply (same_nth_error _ _ _ _ Ep) in Hn as [sp' Hn]. exists sp', opt, b, tid, args, u. auto.
  - intros (opt & b & u & Hn & Hi & Ho).
    apply (same_nth_error _ _ _ _ Ep) in Hn. exists opt, b, u. auto.
  - intros (tid & args & u & Hn & Hi & Ho).
    apply (same_nth_error _ _ _ _ Ep) in Hn. exists tid, args, u. auto.
Qed.

Lemma spec_edge_forget ds m r e : spec_edge ds (forget_sig m) r e <-> spec_edge ds m r e.
Proof. split; apply spec_edge_same; [|symmetry]; apply forget_sig_idem. Qed.

(* For a method written with an elided return lifetime and accepted by validation, the inputs the analysis reports
   are exactly those Rust's rules require for the same method with the source lifetime written out. *)
Theorem elided_return_edges g h ds m k m' k' r :
  elision_source g = SelfParam h \/ elision_source g = OneParam h ->
  lower_sig g = Some (m, k) -> lower_sig (spell_ret (alt_of_lt h) g) = Some (m', k') ->
  defs_okb ds = true -> validate_defs ds = true -> sig_okb ds m = true -> validate_method ds m = true ->
  In r (ret_lts m) -> no_borrowed_opt_slice ds m r ->
  k = k' /\ forall e, In e (edges_for m r) <-> spec_edge ds m' r e.
Proof.
  intros Hs Hm Hm' Hd Hv Hk Hvm Hr Hn.
  pose proof (elided_return_is_source g h Hs) as E. rewrite Hm, Hm' in E. cbn in E.
  assert (F : forget_sig m' = forget_sig m) by congruence.
  split; [congruence|]. intros e. rewrite (borrow_edges_exact_b ds m r Hd Hv Hk Hvm Hr Hn e).
  now rewrite <- (spec_edge_forget ds m), <- (spec_edge_forget ds m'), F.
Qed.

Lemma ty_lts_mark t p : ty_lts (mark t p) = ty_lts p.
Proof. destruct t as [|sp opt [[| |]|] tid args ndef| |], p; auto. Qed.
Lemma ty_lts_marks ts : forall ps, flat_map ty_lts (marks ts ps) = flat_map ty_lts ps.
Proof. induction ts as [|t r IH]; intros [|p pr]; cbn; auto. rewrite ty_lts_mark, IH. auto. Qed.

Lemma pos1_incl t p : incl (pos1 t p) (ty_lts p).
Proof. destruct t as [|[]| |[]], p; cbn; auto using incl_refl, incl_nil_l, incl_appl, incl_appr, incl_app. Qed.

Lemma lowered_positions_incl ts : forall ps, incl (lowered_positions ts ps) (flat_map ty_lts ps).
Proof.
  induction ts as [|t r IH]; intros [|p pr]; cbn [lowered_positions flat_map]; try easy.
  apply incl_app; [apply incl_appl, pos1_incl|apply incl_appr, IH].
Qed.

Lemma lower_rets_elided_in s ts rs s2 h :
  lower_rets s ts = Some (rs, s2) -> ret_elided ts = true -> ret_lower s AAnon = Some h -> In h (flat_map ty_lts rs).
Proof.
  intros E (a & Hin & A)%existsb_exists Hh. destruct a; try discriminate A.
  pose proof (lower_rets_reads ts s) as R. rewrite E in R. destruct R as [_ R].
  apply (lowered_positions_incl ts), (map_opt_In _ _ _ _ _ R Hin Hh).
Qed.

(* "Found elided lifetime in return type": when the source of elision is not a named lifetime (`fn f(&self) -> &T`,
   `fn f(x: &T) -> &T`), validation refuses the method, for any type definitions *)
Theorem elided_return_of_anonymous_source_rejected g i m k ds :
  (elision_source g = SelfParam (Lt i) \/ elision_source g = OneParam (Lt i)) -> s_n g <= i ->
  ret_elided (s_ret g) = true -> lower_sig g = Some (m, k) -> validate_method ds m = false.
Proof.
  destruct (lower_sig_phases g) as (ps0 & s0 & ps & s1 & _ & _ & -> & ->). intros Hs Hi He.
  destruct (lower_rets s1 (s_ret g)) as [[rs s2]|] eqn:E; [|discriminate]. intros [= <- _].
  apply not_true_is_false. intros V. apply (ret_lts_named _ _ i) in V; [cbn in V; lia|].
  apply nonstatic_In. cbn [m_ret]. rewrite ty_lts_marks. apply (lower_rets_elided_in _ _ _ _ _ E He).
  unfold ret_lower. now destruct Hs as [->| ->].
Qed.

Definition alt_ok (n : nat) (a : alt) : Prop := match a with ANamed i => i < n | _ => True end.
Definition below (k : nat) (l : lt) : Prop := match l with Static => True | Lt i => i < k end.
Definition sty_alts (t : sty) : list alt :=
  match t with
  | SPrim => []
  | SOpaque _ _ b _ args _ => opt_list b ++ args
  | SSlice _ b => opt_list b
  | SStruct _ _ _ args _ => args
  end.
Definition self_alts (sf : sself) : list alt :=
  match sf with SelfNone => [] | SelfRef l _ args => l :: args | SelfVal _ args => args end.
Definition ssig_ok (g : ssig) : Prop :=
  Forall (alt_ok (s_n g)) (self_alts (s_self g) ++ flat_map sty_alts (s_params g) ++ flat_map sty_alts (s_ret g)).

Definition src_below (k : nat) (e : esrc) : Prop :=
  match e with SelfParam h | OneParam h => below k h | _ => True end.
Definition cache_below (k : nat) (c : option (list lt)) : Prop :=
  match c with Some hs => Forall (below k) hs | None => True end.
Definition sinv (n : nat) (s : st) : Prop := n <= num s /\ src_below (num s) (src s) /\ cache_below (num s) (cache s).

(* a stretch of the lowering from [s] to [s1] that hands out the lifetimes [o]: if the invariant holds before, it holds
   after, the counter has only grown, and what was handed out lies below it.  (An implication, so that stretches
   compose by step_seq without carrying the invariant separately.) *)
Definition step (n : nat) (s : st) (o : list lt) (s1 : st) : Prop :=
  sinv n s -> sinv n s1 /\ num s <= num s1 /\ Forall (below (num s1)) o.

Lemma sinv_init n : sinv n (mkSt NoBorrows None n).
Proof. unfold sinv. cbn. auto. Qed.

Lemma below_mono k k' l : k <= k' -> below k l -> below k' l.
Proof. destruct l; cbn; auto. lia. Qed.
Lemma Forall_below_mono k k' ls : k <= k' -> Forall (below k) ls -> Forall (below k') ls.
Proof. intros H. apply Forall_impl. intros a. now apply below_mono. Qed.
Lemma src_below_mono k k' e : k <= k' -> src_below k e -> src_below k' e.
Proof. destruct e; cbn; auto; apply below_mono. Qed.
Lemma cache_below_mono k k' c : k <= k' -> cache_below k c -> cache_below k' c.
Proof. destruct c; cbn; auto. apply Forall_below_mono. Qed.

Lemma step_pure n s o : (sinv n s -> Forall (below (num s)) o) -> step n s o s.
Proof. unfold step. auto. Qed.
Lemma step_nil n s : step n s [] s.
Proof. apply step_pure. constructor. Qed.
Lemma step_seq n s o1 s1 o2 s2 o :
  step n s o1 s1 -> step n s1 o2 s2 -> incl o (o1 ++ o2) -> step n s o s2.
Proof.
  unfold step. intros A B Ho I. destruct (A I) as (I1 & L1 & F1). destruct (B I1) as (I2 & L2 & F2).
  split; [exact I2|]. split; [lia|]. apply (incl_Forall Ho), Forall_app. eauto using Forall_below_mono.
Qed.

Lemma assign_below n ls : forall k, Forall (alt_ok n) ls -> n <= k -> Forall (below (next k ls)) (assign k ls).
Proof.
  induction ls as [|a r IH]; intros k F Hk; cbn [assign]; [constructor|].
  inversion F as [|a' r' Ha Hr]; subst. pose proof (next_le k r). pose proof (next_le (S k) r).
  destruct a; constructor; cbn in *; auto; lia.
Qed.

Lemma fold_visit_below k hs e : src_below k e -> Forall (below k) hs -> src_below k (fold_left visit hs e).
Proof.
  rewrite fold_visit. intros He F. destruct e, hs as [|h [|]]; cbn; auto.
  (* left: no source yet and one lifetime visited, which becomes the source *) now inversion F.
Qed.

Lemma self_or_new_below n s ls hs s1 :
  self_lifetimes_or_new s ls = (hs, s1) -> Forall (alt_ok n) ls -> step n s hs s1.
Proof.
  unfold self_lifetimes_or_new, step, sinv. intros H F (Hn & Hs & Hc). destruct (cache s) as [c|] eqn:Ec.
  - injection H as <- <-. rewrite Ec. auto.
  - rewrite map_st_base in H. injection H as <- <-. cbn [num src cache cache_below].
    pose proof (assign_below n ls (num s) F Hn). pose proof (next_le (num s) ls).
    repeat split; auto; try lia. now apply (src_below_mono (num s)).
Qed.

Lemma map_param_below n s ls hs s1 :
  map_st param_lower s ls = (hs, s1) -> Forall (alt_ok n) ls -> step n s hs s1.
Proof.
  rewrite map_st_param. unfold step, sinv. intros [= <- <-] F (Hn & Hs & Hc). cbn [num src cache].
  pose proof (assign_below n ls (num s) F Hn). pose proof (next_le (num s) ls). repeat split; auto; try lia.
  - apply fold_visit_below; auto. now apply (src_below_mono (num s)).
  - now apply (cache_below_mono (num s)).
Qed.

Lemma param_borrow_below n s b hb s1 :
  param_borrow s b = (hb, s1) -> Forall (alt_ok n) (opt_list b) -> step n s (opt_list hb) s1.
Proof. intros H. eapply map_param_below, param_borrow_map, H. Qed.

Lemma pad_ok n ls ndef : Forall (alt_ok n) ls -> Forall (alt_ok n) (pad ls ndef).
Proof. intros F. apply Forall_app. split; auto. apply Forall_forall. intros a ->%repeat_spec. exact I. Qed.

Lemma param_generics_below n s ls ndef sp hs s1 :
  param_generics s ls ndef sp = (hs, s1) -> Forall (alt_ok n) ls -> step n s hs s1.
Proof. destruct sp; cbn [param_generics]; eauto using self_or_new_below, map_param_below, pad_ok. Qed.

Lemma lower_param_below n s t p s1 :
  lower_param s t = (p, s1) -> Forall (alt_ok n) (sty_alts t) -> step n s (ty_lts p) s1.
Proof.
  destruct t as [|sp opt b tid args ndef|opt b|sp opt tid args ndef]; cbn [lower_param sty_alts]; intros H F.
  - injection H as <- <-. apply step_nil.
  - apply Forall_app in F as [Fb Fa].
    destruct (param_borrow s b) as [hb s0] eqn:Eb, (param_generics s0 args ndef sp) as [hs s2] eqn:Eg. injection H as <- <-.
    eapply step_seq; [eapply param_borrow_below; eauto | eapply param_generics_below; eauto|].
    cbn [ty_lts]. auto using incl_app, incl_appl, incl_appr, incl_refl.
  - destruct (param_borrow s b) as [hb s0] eqn:Eb. injection H as <- <-. eapply param_borrow_below; eauto.
  - destruct (param_generics s args ndef sp) as [hs s0] eqn:Eg. injection H as <- <-. eapply param_generics_below; eauto.
Qed.

Lemma lower_params_below n ts : forall s ps s1,
  lower_params s ts = (ps, s1) -> Forall (alt_ok n) (flat_map sty_alts ts) -> step n s (flat_map ty_lts ps) s1.
Proof.
  induction ts as [|t r IH]; intros s ps s1; cbn [lower_params flat_map]; intros H F.
  - injection H as <- <-. apply step_nil.
  - apply Forall_app in F as [Ft Fr].
    destruct (lower_param s t) as [p s0] eqn:Ep, (lower_params s0 r) as [pr s2] eqn:Er. injection H as <- <-.
    eapply step_seq; [eapply lower_param_below; eauto | eapply IH; eauto | apply incl_refl].
Qed.

Lemma lower_self_below n sf ps0 s0 :
  lower_self n sf = (ps0, s0) -> Forall (alt_ok n) (self_alts sf) -> step n (mkSt NoBorrows None n) (flat_map ty_lts ps0) s0.
Proof.
  unfold lower_self. destruct sf as [|l tid args|tid args]; cbn [self_alts]; intros H F.
  - injection H as <- <-. apply step_nil.
  - inversion F as [|a r Fl Fa]; subst.
    destruct (base_lower _ l) as [h s1] eqn:E, (self_lifetimes_or_new _ args) as [hs s3] eqn:E2. injection H as <- <-.
    assert (B : step n (mkSt NoBorrows None n) [h] (mkSt (SelfParam h) (cache s1) (num s1))).
    { unfold step, sinv. intros _. destruct l; injection E as <- <-; cbn in *; repeat split; auto with arith.
      repeat constructor. (* left over: the fresh [Lt n] is below [S n] *) }
    eapply step_seq; [exact B | eapply self_or_new_below; eauto |].
    cbn [flat_map ty_lts opt_list]. rewrite app_nil_r. auto using incl_app, incl_appl, incl_appr, incl_refl.
  - destruct (self_lifetimes_or_new _ args) as [hs s3] eqn:E2. injection H as <- <-.
    cbn. rewrite app_nil_r. eapply self_or_new_below; eauto.
Qed.

Lemma ret_lower_below n s l h : ret_lower s l = Some h -> sinv n s -> alt_ok n l -> below (num s) h.
Proof.
  intros H (Hn & Hs & _) A. destruct l; cbn in H; [injection H as <-; cbn in *; auto; lia..|].
  destruct (src s); now inversion H; subst.
Qed.

Lemma map_ret_lower_below n s ls hs :
  map_opt (ret_lower s) ls = Some hs -> Forall (alt_ok n) ls -> step n s hs s.
Proof. intros H F. apply step_pure. intros I. revert H F. apply map_opt_Forall. eauto using ret_lower_below. Qed.

Lemma ret_borrow_below n s b hb :
  ret_borrow s b = Some hb -> Forall (alt_ok n) (opt_list b) -> step n s (opt_list hb) s.
Proof. intros H. apply map_ret_lower_below. now rewrite ret_borrow_map, H. Qed.

Lemma ret_generics_below n s ls ndef sp hs s1 :
  ret_generics s ls ndef sp = Some (hs, s1) -> Forall (alt_ok n) ls -> step n s hs s1.
Proof.
  unfold ret_generics. destruct sp; [intros [= E]; eapply self_or_new_below, E|].
  destruct (map_opt _ _) eqn:E; intros [= <- <-] F. eapply map_ret_lower_below; eauto using pad_ok.
Qed.

Lemma lower_ret1_below n s t p s1 :
  lower_ret1 s t = Some (p, s1) -> Forall (alt_ok n) (sty_alts t) -> step n s (ty_lts p) s1.
Proof.
  destruct t as [|sp opt b tid args ndef|opt b|sp opt tid args ndef]; cbn [lower_ret1 sty_alts]; intros H F.
  - injection H as <- <-. apply step_nil.
  - apply Forall_app in F as [Fb Fa]. destruct (ret_borrow s b) as [hb|] eqn:Eb; [|discriminate].
    destruct (ret_generics s args ndef sp) as [[hs s2]|] eqn:Eg; [|discriminate]. injection H as <- <-.
    eapply step_seq; [eapply ret_borrow_below; eauto | eapply ret_generics_below; eauto|].
    cbn [ty_lts]. auto using incl_app, incl_appl, incl_appr, incl_refl.
  - destruct (ret_borrow s b) as [hb|] eqn:Eb; [|discriminate]. injection H as <- <-. eapply ret_borrow_below; eauto.
  - destruct (ret_generics s args ndef sp) as [[hs s2]|] eqn:Eg; [|discriminate]. injection H as <- <-.
    eapply ret_generics_below; eauto.
Qed.

Lemma lower_rets_below n ts : forall s rs s1,
  lower_rets s ts = Some (rs, s1) -> Forall (alt_ok n) (flat_map sty_alts ts) -> step n s (flat_map ty_lts rs) s1.
Proof.
  induction ts as [|t r IH]; intros s rs s1; cbn [lower_rets flat_map]; intros H F.
  - injection H as <- <-. apply step_nil.
  - apply Forall_app in F as [Ft Fr].
    destruct (lower_ret1 s t) as [[p s0]|] eqn:Ep; [|discriminate].
    destruct (lower_rets s0 r) as [[pr s2]|] eqn:Er; [|discriminate]. injection H as <- <-.
    eapply step_seq; [eapply lower_ret1_below; eauto | eapply IH; eauto | apply incl_refl].
Qed.

(* every lifetime the lowering hands to the borrow analysis and to the backends is 'static or an index below
   LifetimeEnv::num_lifetimes: LifetimeEnv::fmt_lifetime cannot reach its "Found out of range lifetime" panic on a
   lifetime of the method's own signature *)
Theorem lowered_lifetimes_in_range g m k :
  ssig_ok g -> lower_sig g = Some (m, k) ->
  s_n g <= k /\ Forall (below k) (flat_map ty_lts (m_params m ++ m_ret m)).
Proof.
  unfold ssig_ok. intros W. apply Forall_app in W as [Ws W]. apply Forall_app in W as [Wp Wr].
  destruct (lower_sig_phases g) as (ps0 & s0 & ps & s1 & Es & Ep & _ & ->).
  destruct (lower_rets s1 (s_ret g)) as [[rs s2]|] eqn:Er; [|discriminate]. intros [= <- <-]. cbn [m_params m_ret].
  assert (S : step (s_n g) (mkSt NoBorrows None (s_n g)) (flat_map ty_lts ((ps0 ++ ps) ++ marks (s_ret g) rs)) s2).
  { eapply step_seq; [eapply lower_self_below; eauto | eapply step_seq; [eapply lower_params_below | eapply lower_rets_below | apply incl_refl]; eauto |].
    rewrite !flat_map_app, ty_lts_marks, <- app_assoc. apply incl_refl. }
  destruct (S (sinv_init _)) as ((Hn & _) & _ & F). now split.
Qed.
