(* C04 — the borrow analysis reports exactly what Rust's rules require.  The chain: the DFS computes the closure of the
   recorded bounds (dfs_spec); an env built with the "already longer" skip records the closure of the written bounds
   (extends); validation makes every requirement of a used definition follow from the bounds recorded at the use site
   (use_chain, use_recorded); so for an accepted method Spec.outlives is reachability in its env
   (outlives_iff_recorded), and visit_param reports the parameters that mention such a lifetime (borrow_edges_exact). *)
From Coq Require Import List Arith Bool Lia Relations.
Import ListNotations.
From DV Require Import Base.Lists Base.Closure Lifetimes.Model Lifetimes.Spec.

Lemma memb_In x l : memb x l = true <-> In x l.
Proof. apply existsb_eqb_In, Nat.eqb_eq. Qed.

Lemma memb_false x l : memb x l = false <-> ~ In x l.
Proof. rewrite <- memb_In. destruct (memb x l); split; congruence. Qed.

Definition direct (g : graph) (a b : nat) : Prop := In b (longer g a).
Definition reach (g : graph) : nat -> nat -> Prop := clos_refl_trans_1n nat (direct g).

(* edges leaving nodes that are not yet visited: the room the stack still has to grow *)
Definition undeg (g : graph) (vis : list nat) : nat :=
  list_sum (map (fun i => if memb i vis then 0 else length (longer g i)) (seq 0 (length g))).

Lemma undeg_nil g : undeg g [] = edge_count g.
Proof. unfold undeg, edge_count, longer. cbn [memb existsb]. now rewrite <- (map_map _ (@length nat)), map_nth_seq. Qed.

Lemma undeg_mark g vis x : ~ In x vis -> undeg g (x :: vis) + length (longer g x) = undeg g vis.
Proof.
  intros Hx. unfold undeg.
  rewrite <- (list_sum_mark (fun i => length (longer g i)) (fun i => memb i vis) (fun i => memb i (x :: vis)) x _ (seq_NoDup _ _)).
  - (* the goal itself: the weight taken off is that of x if x is a node, and a number that is no node has no edges *)
    destruct (existsb _ _) eqn:Hm; [reflexivity|]. apply memb_false in Hm. rewrite in_seq in Hm.
    unfold longer. rewrite nth_overflow; [reflexivity|lia].
  - now apply memb_false.
  - cbn [memb existsb]. now rewrite Nat.eqb_refl.
  - intros i Hi%Nat.eqb_neq. cbn [memb existsb]. now rewrite Hi.
Qed.

(* what a run of the DFS ends with, having [vis] visited and [st] on the stack: the visited nodes and whatever the
   stacked ones reach *)
Definition covered (g : graph) (vis st : list nat) (x : nat) : Prop := In x vis \/ exists s, In s st /\ reach g s x.

Lemma covered_nil g vis x : covered g vis [] x <-> In x vis.
Proof. split; [intros [H|(s & [] & _)]; exact H|now left]. Qed.

(* a stacked node that is visited already adds nothing, provided the edges of visited nodes lead to visited or stacked
   ones: then [covered g vis st] holds of that node and is closed under edges *)
Lemma covered_visited g vis st y x :
  In y vis -> (forall v w, In v vis -> direct g v w -> In w vis \/ In w st) ->
  (covered g vis (y :: st) x <-> covered g vis st x).
Proof.
  intros Hy Hcl. split.
  - intros [H|(s & [<-|Hs] & Hr)].
    + now left.
    + apply (clos_rt1n_inv (direct g) (covered g vis st)) with (a := y); [|exact Hr|now left].
      intros v w [Hv|(s' & Hs' & Hr')] Hd.
      * destruct (Hcl v w Hv Hd) as [Hw|Hw]; [now left|]. right. exists w. split; [exact Hw|constructor].
      * right. exists s'. split; [exact Hs'|]. eapply clos_rt1n_trans; [exact Hr'|now apply clos_rt1n_step].
    + right. exists s. auto.
  - intros [H|(s & Hs & Hr)]; [now left|]. right. exists s. split; [now right|exact Hr].
Qed.

(* marking a node and stacking its edges (the last on top, as Vec::extend leaves them): what the node reaches beyond itself
   it reaches through one of them *)
Lemma covered_marked g vis st y x :
  covered g (y :: vis) (rev (longer g y) ++ st) x <-> covered g vis (y :: st) x.
Proof.
  split.
  - intros [[<-|H]|(s & [Hs|Hs]%in_app_or & Hr)].
    + right. exists y. split; [now left|constructor].
    + now left.
    + apply in_rev in Hs. right. exists y. split; [now left|]. econstructor; eassumption.
    + right. exists s. split; [now right|exact Hr].
  - intros [H|(s & [<-|Hs] & Hr)].
    + left. now right.
    + destruct Hr as [|z x Hd Hr]; [left; now left|]. right. exists z. split; [|exact Hr].
      apply in_or_app. left. now apply in_rev in Hd.
    + right. exists s. split; [|exact Hr]. apply in_or_app. now right.
Qed.

Lemma dfs_spec g : forall fuel st vis,
  length st + undeg g vis <= fuel ->
  (forall v w, In v vis -> direct g v w -> In w vis \/ In w st) ->
  forall x, In x (dfs g fuel st vis) <-> covered g vis st x.
Proof.
  induction fuel as [|f IH]; intros [|y st] vis Hfuel Hcl x; cbn [dfs length] in *.
  - symmetry. apply covered_nil.
  - lia.
  - symmetry. apply covered_nil.
  - destruct (memb y vis) eqn:Hy.
    + apply memb_In in Hy.
      assert (Hcl' : forall v w, In v vis -> direct g v w -> In w vis \/ In w st).
      { intros v w Hv Hd. destruct (Hcl v w Hv Hd) as [|[<-|]]; auto. }
      rewrite covered_visited by assumption. apply IH; [lia|exact Hcl'].
    + apply memb_false in Hy. rewrite <- covered_marked. apply IH.
      * (* fuel: the stack grows by the edges of y, which no longer count as unvisited *)
        rewrite app_length, rev_length. pose proof (undeg_mark g vis y Hy). lia.
      * (* invariant: the edges of y are on the new stack; those of older visited nodes led to visited nodes, to y, which
           is visited now, or to the rest of the stack *)
        intros v w [<-|Hv] Hd.
        -- right. apply in_or_app. left. now apply in_rev in Hd.
        -- destruct (Hcl v w Hv Hd) as [Hw|[<-|Hw]].
           ++ left. now right.
           ++ left. now left.
           ++ right. apply in_or_app. now right.
Qed.

(* all_longer_lifetimes(r) is exactly the set of lifetimes reachable from r along recorded bounds, r included *)
Theorem all_longer_is_closure g r x : In x (all_longer g r) <-> reach g r x.
Proof.
  unfold all_longer. rewrite dfs_spec.
  - split; [intros [[]|(s & [<-|[]] & H)]; exact H|]. intros H. right. exists r. split; [now left|exact H].
  - cbn [length]. rewrite undeg_nil. lia.
  - intros v w [].
Qed.

Lemma upd_length g i f : length (upd g i f) = length g.
Proof. revert i. induction g as [|x g IH]; intros [|i]; cbn [upd length]; auto. Qed.

Lemma upd_nth g i f a : nth a (upd g i f) [] = if (a =? i) && (i <? length g) then f (nth a g []) else nth a g [].
Proof.
  revert i a. induction g as [|x g IH]; intros [|i] [|a]; cbn [upd nth length]; auto; [now rewrite andb_false_r|apply IH].
Qed.

Lemma direct_add_edge g s l a b :
  direct (add_edge g s l) a b <-> direct g a b \/ (a = s /\ b = l /\ s < length g).
Proof.
  unfold direct, longer, add_edge. rewrite upd_nth. destruct (Nat.eqb_spec a s) as [->|Hne]; cbn [andb].
  - destruct (Nat.ltb_spec s (length g)) as [Hlt|Hge].
    + rewrite in_app_iff. cbn [In]. split; [intros [|[<-|[]]]|intros [|(_ & -> & _)]]; auto.
    + (* s is not a node: nothing changes *)
      apply Nat.le_ngt in Hge. tauto.
  - tauto.
Qed.

Definition add_pairs (g : graph) (ps : list (nat * nat)) : graph := fold_left (fun g p => add_edge g (fst p) (snd p)) ps g.

Lemma add_pairs_length g ps : length (add_pairs g ps) = length g.
Proof. revert g. induction ps as [|p ps IH]; intros g; [reflexivity|]. cbn. unfold add_pairs in IH. rewrite IH. apply upd_length. Qed.

Lemma direct_add_pairs g ps a b :
  direct (add_pairs g ps) a b <-> direct g a b \/ (In (a, b) ps /\ a < length g).
Proof.
  revert g. induction ps as [|[s l] ps IH]; intros g; [cbn; tauto|].
  cbn [add_pairs fold_left fst snd]. fold (add_pairs (add_edge g s l) ps).
  rewrite IH, direct_add_edge. clear IH. unfold add_edge. rewrite upd_length. cbn [In]. split.
  - (* an edge of g, the pair (s, l) just added, or one of the later pairs *)
    intros [[H|(-> & -> & H)]|[H1 H2]]; [left; exact H|right; split; [now left|exact H]|right; split; [now right|exact H2]].
  - intros [H|[[[= -> ->]|H1] H2]]; [left; now left|left; right; auto|right; auto].
Qed.

(* g' extends g by the pairs ps: same nodes; the bounds of g are kept; nothing but pairs of ps is added; and every pair
   of ps (whose shorter side is a node) holds in g' at least as a chain: the "already longer" skip leaves out a pair
   only if it does *)
Definition extends (g g' : graph) (ps : list (nat * nat)) : Prop :=
  length g' = length g /\
  (forall a b, direct g a b -> direct g' a b) /\
  (forall a b, direct g' a b -> direct g a b \/ In (a, b) ps) /\
  (forall a b, In (a, b) ps -> a < length g -> reach g' a b).

Lemma extends_refl g : extends g g [].
Proof. repeat split; [auto|auto|intros a b []]. Qed.

Lemma extends_trans g g' g'' ps qs : extends g g' ps -> extends g' g'' qs -> extends g g'' (ps ++ qs).
Proof.
  intros (Hlen & Hkeep & Hnew & Hps) (Hlen' & Hkeep' & Hnew' & Hqs). repeat split.
  - congruence.
  - auto.
  - intros a b [H|H]%Hnew'; rewrite in_app_iff; [apply Hnew in H; tauto|tauto].
  - intros a b [H|H]%in_app_or Ha.
    + apply (clos_rt1n_mono (direct g')); [exact Hkeep'|]. now apply Hps.
    + apply Hqs; [exact H|]. now rewrite Hlen.
Qed.

(* adding some of the pairs qs, when the others are reachable already *)
Lemma add_pairs_extends g ps qs :
  incl ps qs -> (forall a b, In (a, b) qs -> In (a, b) ps \/ reach g a b) -> extends g (add_pairs g ps) qs.
Proof.
  intros Hsub Hrest.
  assert (Hkeep : forall a b, direct g a b -> direct (add_pairs g ps) a b) by (intros a b H; apply direct_add_pairs; auto).
  repeat split.
  - apply add_pairs_length.
  - exact Hkeep.
  - intros a b [H|[H _]]%direct_add_pairs; auto.
  - intros a b [H|H]%Hrest Ha.
    + apply clos_rt1n_step, direct_add_pairs. auto.
    + exact (clos_rt1n_mono _ _ Hkeep a b H).
Qed.

(* extend_bounds adds every declared pair; extend_implicit_lifetime_bounds skips a path lifetime that is already
   known to be longer than the borrow *)
Lemma apply_op_add_pairs g o :
  apply_op g o = add_pairs g match o with
                             | Decl l ss => map (fun s => (s, l)) ss
                             | Impl b ps => map (fun p => (b, p)) (filter (fun p => negb (memb p (all_longer g b))) ps)
                             end.
Proof. destruct o; symmetry; apply fold_left_map. Qed.

Lemma apply_op_extends g o : extends g (apply_op g o) (pairs_of_op o).
Proof.
  rewrite apply_op_add_pairs. apply add_pairs_extends.
  - destruct o; cbn [pairs_of_op]; [apply incl_refl|apply incl_map, incl_filter].
  - destruct o as [l ss|b ps]; cbn [pairs_of_op]; [auto|].
    intros a c [p [[= <- <-] Hp]]%in_map_iff.
    destruct (memb p (all_longer g b)) eqn:Hm; [right; now apply all_longer_is_closure, memb_In|].
    left. apply in_map, filter_In. now rewrite Hm.
Qed.

Lemma fold_ops_extends ops g : extends g (fold_left apply_op ops g) (constraints ops).
Proof.
  revert g. induction ops as [|o ops IH]; intros g; [apply extends_refl|].
  exact (extends_trans _ _ _ _ _ (apply_op_extends g o) (IH _)).
Qed.

Lemma direct_empty n a b : ~ direct (empty_graph n) a b.
Proof. unfold direct, longer, empty_graph. now rewrite nth_repeat. Qed.

Lemma empty_graph_length n : length (empty_graph n) = n.
Proof. apply repeat_length. Qed.

Lemma build_length n ops : length (build n ops) = n.
Proof. destruct (fold_ops_extends ops (empty_graph n)) as (Hlen & _). unfold build. now rewrite Hlen, empty_graph_length. Qed.

Lemma build_sound n ops a b : direct (build n ops) a b -> In (a, b) (constraints ops).
Proof.
  destruct (fold_ops_extends ops (empty_graph n)) as (_ & _ & Hnew & _).
  intros [H|H]%Hnew; [destruct (direct_empty _ _ _ H)|exact H].
Qed.

Lemma build_complete n ops a b : In (a, b) (constraints ops) -> a < n -> reach (build n ops) a b.
Proof.
  destruct (fold_ops_extends ops (empty_graph n)) as (_ & _ & _ & Hps).
  intros H Ha. apply Hps; [exact H|]. now rewrite empty_graph_length.
Qed.

(* for SpecExec.outlives_b, which runs the tool's DFS on the pairs of the specification *)
Lemma all_longer_pairs ps n r x : (forall a b, In (a, b) ps -> a < n) ->
  (In x (all_longer (add_pairs (empty_graph n) ps) r) <-> clos_refl_trans_1n nat (fun a b => In (a, b) ps) r x).
Proof.
  intros Hn. rewrite all_longer_is_closure. apply clos_rt1n_iff. intros a b.
  rewrite direct_add_pairs, empty_graph_length. split.
  - intros [H|[H _]]; [destruct (direct_empty _ _ _ H)|exact H].
  - intros H. right. split; [exact H|]. now apply (Hn a b).
Qed.

Definition cpair (ops : list op) (a b : nat) : Prop := In (a, b) (constraints ops).

(* a written bound whose shorter side is not among the n nodes is dropped (upd); the others generate what is recorded *)
Theorem build_closure n ops a b :
  reach (build n ops) a b <-> clos_refl_trans_1n nat (fun a b => cpair ops a b /\ a < n) a b.
Proof.
  split; apply clos_rt1n_sub; intros x y H.
  - apply clos_rt1n_step. split; [apply (build_sound n), H|].
    (* only a node has recorded bounds *)
    rewrite <- (build_length n ops). apply Nat.lt_nge. intros Hge. unfold direct, longer in H. now rewrite nth_overflow in H.
  - destruct H as [H Hx]. now apply build_complete.
Qed.

Theorem build_is_closure n ops : (forall a b, cpair ops a b -> a < n) ->
  forall a b, reach (build n ops) a b <-> clos_refl_trans_1n nat (cpair ops) a b.
Proof.
  intros Hwf a b. rewrite build_closure.
  split; apply clos_rt1n_sub; intros x y H; apply clos_rt1n_step; [exact (proj1 H)|exact (conj H (Hwf x y H))].
Qed.

Lemma constraints_app a b : constraints (a ++ b) = constraints a ++ constraints b.
Proof. apply flat_map_app. Qed.

(* d_ops, m_ops and Spec.spec_ops all have this shape: the declared bounds, then what each type contributes *)
Lemma sig_ops_In {T} (f : T -> list op) decl l p :
  In p (constraints (decl_ops decl ++ flat_map f l)) <->
  In p (constraints (decl_ops decl)) \/ exists t, In t l /\ In p (constraints (f t)).
Proof.
  rewrite constraints_app, in_app_iff. apply or_iff_compat_l. unfold constraints. rewrite in_flat_map. split.
  - intros (o & (t & Ht & Ho)%in_flat_map & Hp). exists t. rewrite in_flat_map. eauto.
  - intros (t & Ht & (o & Ho & Hp)%in_flat_map). exists o. rewrite in_flat_map. eauto.
Qed.

Lemma decl_ops_In decl a b : In (a, b) (constraints (decl_ops decl)) <-> exists ss, In (b, ss) decl /\ In a ss.
Proof.
  unfold constraints, decl_ops. rewrite in_flat_map. setoid_rewrite in_map_iff. split.
  - intros (o & ([l ss] & <- & Hd) & (s & [= <- <-] & Hs)%in_map_iff). eauto.
  - intros (ss & Hd & Hs). exists (Decl b ss). split; [now exists (b, ss)|]. apply in_map_iff. eauto.
Qed.

Lemma named_some n l i : named n l = Some i -> l = Lt i /\ i < n.
Proof. destruct l as [|j]; cbn [named]; [easy|]. destruct (Nat.ltb_spec j n); [|easy]. now intros [= <-]. Qed.

Lemma named_lt n i : i < n -> named n (Lt i) = Some i.
Proof. intros H%Nat.ltb_lt. cbn [named]. now rewrite H. Qed.

Lemma named_list_In n ls i : In i (named_list n ls) <-> In (Lt i) ls /\ i < n.
Proof.
  unfold named_list. rewrite in_flat_map. split.
  - intros (l & Hl & Hi). destruct (named n l) as [j|] eqn:Hn; [|easy]. destruct Hi as [<-|[]].
    apply named_some in Hn as [-> ?]. auto.
  - intros [Hl Hlt]. exists (Lt i). split; [exact Hl|]. rewrite named_lt by exact Hlt. now left.
Qed.

Lemma ref_ops_In n t a b : In (a, b) (constraints (ref_ops n t)) <->
  exists sp opt tid args, t = TOpaque sp opt (Some (Lt a)) tid args /\ a < n /\ In (Lt b) args /\ b < n.
Proof.
  split.
  - destruct t as [|sp opt [bl|] tid args| |]; cbn [ref_ops]; try easy.
    destruct (named n bl) as [bi|] eqn:Hn; [|easy]. apply named_some in Hn as [-> Ha].
    unfold constraints. cbn [flat_map pairs_of_op]. rewrite app_nil_r.
    intros (p & [= <- <-] & Hp%named_list_In)%in_map_iff. exists sp, opt, tid, args. tauto.
  - intros (sp & opt & tid & args & -> & Ha & Hin & Hb). cbn [ref_ops].
    rewrite named_lt by exact Ha. unfold constraints. cbn [flat_map pairs_of_op]. rewrite app_nil_r.
    apply in_map, named_list_In. auto.
Qed.

(* nothing is recorded that the signature does not imply, whatever the spelling *)
Lemma ty_ops_sub n t p : In p (constraints (ty_ops n t)) -> In p (constraints (ref_ops n t)).
Proof. destruct t as [|[|] ? ? ? ?| |]; cbn [ty_ops]; easy. Qed.

Lemma ops_range n decl tys a b : decl_ok n decl ->
  In (a, b) (constraints (decl_ops decl ++ flat_map (ty_ops n) tys)) -> a < n /\ b < n.
Proof.
  intros Hok. rewrite sig_ops_In, decl_ops_In.
  intros [(ss & [Hb Hss]%Hok & Ha)|(t & _ & (_ & _ & _ & _ & _ & Ha & _ & Hb)%ty_ops_sub%ref_ops_In)]; auto.
Qed.

Definition env_ok (n : nat) (env : graph) : Prop := length env = n /\ forall a b, direct env a b -> a < n /\ b < n.

Lemma build_env_ok n decl tys : decl_ok n decl -> env_ok n (build n (decl_ops decl ++ flat_map (ty_ops n) tys)).
Proof. intros Hok. split; [apply build_length|]. intros a b H%build_sound. eapply ops_range; eassumption. Qed.

Lemma d_env_ok ds d : def_ok ds d -> env_ok (d_n d) (d_env d).
Proof. intros [Hd _]. now apply build_env_ok. Qed.

Lemma m_env_ok ds m : sig_ok ds m -> env_ok (m_n m) (m_env m).
Proof. intros [Hd _]. now apply build_env_ok. Qed.

(* one link of a named use-site lifetime 'u: every argument plugged into a def-site lifetime that has to outlive the
   linked one (all of them, for the borrow of an opaque) is 'u itself or recorded as longer than 'u *)
Lemma check_link_true env denv dn args u dl : check_link env denv dn args (Lt u) dl = true -> u < length env ->
  forall x cu, In x (match dl with Some d => longer denv d | None => seq 0 dn end) -> nth_error args x = Some (Lt cu) ->
  cu = u \/ direct env u cu.
Proof.
  unfold check_link. intros H Hu%Nat.ltb_lt x cu Hx Hn. rewrite Hu, forallb_forall in H. apply H in Hx.
  rewrite (nth_error_nth _ _ _ Hn) in Hx. apply orb_true_iff in Hx as [->%Nat.eqb_eq|?%memb_In]; auto.
Qed.

(* the two groups of links of a validated use T<args>: the argument 'u at a position x against the def-site lifetimes
   recorded as longer than x; for an opaque, its borrow 'u against all of them *)
Lemma validate_ty_arg ds env t tid args x u x1 cu :
  validate_ty ds env t = true -> ty_use t = Some (tid, args) ->
  nth_error args x = Some (Lt u) -> x < d_n (def_of ds tid) -> u < length env ->
  direct (d_env (def_of ds tid)) x x1 -> nth_error args x1 = Some (Lt cu) -> cu = u \/ direct env u cu.
Proof.
  unfold validate_ty. intros H Hu Hx Hlt Hul Hd Hx1. rewrite Hu in H. apply andb_true_iff in H as [_ H].
  rewrite forallb_forall in H. specialize (H (Lt u, x)). cbn [fst snd] in H.
  assert (Hlink : In (Lt u, x) (combine args (seq 0 (d_n (def_of ds tid))))).
  { apply In_combine. exists x. now rewrite nth_error_seq. }
  exact (check_link_true _ _ _ _ _ (Some x) (H Hlink) Hul x1 cu Hd Hx1).
Qed.

Lemma validate_ty_self ds env t tid args u x cu :
  validate_ty ds env t = true -> ty_use t = Some (tid, args) -> In (Lt u) (ty_self_lt t) -> u < length env ->
  x < d_n (def_of ds tid) -> nth_error args x = Some (Lt cu) -> cu = u \/ direct env u cu.
Proof.
  unfold validate_ty. intros H Hu Hin Hul Hlt Hx. rewrite Hu in H. apply andb_true_iff in H as [H _].
  rewrite forallb_forall in H.
  apply (check_link_true _ _ _ _ _ None (H _ Hin) Hul x); [|exact Hx]. apply in_seq. lia.
Qed.

(* a chain of def-site bounds x -> .. -> y is mirrored, argument by argument, by recorded bounds at the use site *)
Lemma use_chain ds env t tid args :
  validate_ty ds env t = true -> ty_use t = Some (tid, args) ->
  length args = d_n (def_of ds tid) -> (forall a, In a args -> lt_ok a) ->
  (forall a b, direct env a b -> b < length env) ->
  (forall a b, direct (d_env (def_of ds tid)) a b -> a < d_n (def_of ds tid) /\ b < d_n (def_of ds tid)) ->
  forall x y, reach (d_env (def_of ds tid)) x y -> x < d_n (def_of ds tid) ->
  forall u, nth_error args x = Some (Lt u) -> u < length env ->
  exists v, nth_error args y = Some (Lt v) /\ reach env u v /\ v < length env.
Proof.
  intros Hv Hu Hlen Hlt Henv Hdenv x y Hr. induction Hr as [x|x x1 y Hd _ IH]; intros Hx u Hn Hul.
  - exists u. repeat split; [exact Hn|constructor|exact Hul].
  - destruct (Hdenv _ _ Hd) as [_ Hx1].
    assert (Hn1 : nth_error args x1 = Some (nth x1 args Static)) by (apply nth_error_nth'; lia).
    destruct (Hlt _ (nth_error_In _ _ Hn1)) as [cu Hcu]. rewrite Hcu in Hn1.
    destruct (validate_ty_arg ds env t tid args x u x1 cu Hv Hu Hn Hx Hul Hd Hn1) as [->|Hdir].
    + exact (IH Hx1 u Hn1 Hul).
    + destruct (IH Hx1 cu Hn1 (Henv _ _ Hdir)) as (v & Hv1 & Hv2 & Hv3). exists v. repeat split; auto. econstructor; eassumption.
Qed.

Lemma def_of_cases ds tid : In (def_of ds tid) ds \/ def_of ds tid = mkDef 0 [] [].
Proof. unfold def_of. destruct (nth_in_or_default tid ds (mkDef 0 [] [])); auto. Qed.

Lemma def_of_In ds tid t : In t (d_fields (def_of ds tid)) -> In (def_of ds tid) ds.
Proof. destruct (def_of_cases ds tid) as [H| ->]; [auto|intros []]. Qed.

(* an identifier out of range stands for a definition without parameters, bounds or fields: nothing to check *)
Lemma def_of_ok ds tid : defs_ok ds -> def_ok ds (def_of ds tid).
Proof. intros Hok. destruct (def_of_cases ds tid) as [H| ->]; [auto|]. split; [intros ? ? []|intros ? []]. Qed.

Lemma ty_use_lts t tid args : ty_use t = Some (tid, args) -> incl args (ty_lts t).
Proof. destruct t; intros [= <- <-]; cbn [ty_lts]; auto using incl_refl, incl_appl. Qed.

(* a bound that a used definition records between two of its parameters holds, after plugging in the arguments of a
   validated use, among the bounds recorded at the use site *)
Lemma use_recorded ds env n t tid args x y u v :
  def_ok ds (def_of ds tid) -> env_ok n env -> use_ok ds t -> validate_ty ds env t = true -> ty_use t = Some (tid, args) ->
  x < d_n (def_of ds tid) -> reach (d_env (def_of ds tid)) x y ->
  nth_error args x = Some (Lt u) -> nth_error args y = Some (Lt v) -> u < n -> reach env u v /\ v < n.
Proof.
  intros Hok [<- Henv] Huse Hv Hu Hx' Hr Hx Hy Hun. destruct (Huse _ _ Hu) as (Hlen & Hargs & _).
  assert (Henv' : forall a b, direct env a b -> b < length env) by (intros a b Hd; now apply Henv in Hd).
  (* the side hypotheses of use_chain: the use is validated (Hv, Hu) and well-formed (Hlen, Hargs: use_ok), the bounds
     of the use-site env stay among its nodes (Henv': env_ok), and so do those of the definition (def_ok, by d_env_ok) *)
  pose proof (proj2 (d_env_ok ds _ Hok)) as Hdenv.
  destruct (use_chain ds env t tid args Hv Hu Hlen Hargs Henv' Hdenv x y Hr Hx' u Hx Hun) as (v0 & Hv0 & Hr0 & Hv0n).
  rewrite Hy in Hv0. injection Hv0 as <-. auto.
Qed.

Lemma validate_defs_true ds tid t : validate_defs ds = true ->
  In t (d_fields (def_of ds tid)) -> validate_ty ds (d_env (def_of ds tid)) t = true.
Proof.
  unfold validate_defs. rewrite forallb_forall. intros H Ht. specialize (H _ (def_of_In _ _ _ Ht)).
  rewrite forallb_forall in H. auto.
Qed.

(* whatever a definition requires of its parameters follows from the bounds recorded for that definition *)
Theorem wf_edge_reach ds : defs_ok ds -> validate_defs ds = true ->
  forall tid x y, wf_edge ds tid x y ->
    x < d_n (def_of ds tid) /\ y < d_n (def_of ds tid) /\ reach (d_env (def_of ds tid)) x y.
Proof.
  intros Hok Hval tid x y H. induction H as [tid x y Hc|tid t tid' args x y u v Ht Hu _ (Hx' & _ & Hr) Hx Hy];
    destruct (def_of_ok ds tid Hok) as [Hd Hf].
  - destruct (ops_range _ _ _ _ _ Hd Hc). repeat split; auto. now apply build_complete.
  - destruct (Hf t Ht) as [Huse Hrange].
    assert (Hu' : u < d_n (def_of ds tid)) by (eapply Hrange, ty_use_lts, nth_error_In; eassumption).
    destruct (use_recorded ds (d_env (def_of ds tid)) _ t tid' args x y u v (def_of_ok ds tid' Hok)
                (d_env_ok _ _ (def_of_ok ds tid Hok)) Huse (validate_defs_true ds tid t Hval Ht) Hu); auto.
Qed.

(* the same with the hypothesis that the identifier is in range, as the statement of C04 has it; it is not needed *)
Theorem wf_edge_recorded ds : defs_ok ds -> validate_defs ds = true ->
  forall tid x y, wf_edge ds tid x y -> In (def_of ds tid) ds ->
    x < d_n (def_of ds tid) /\ y < d_n (def_of ds tid) /\ reach (d_env (def_of ds tid)) x y.
Proof. intros Hok Hval tid x y H _. now apply wf_edge_reach. Qed.

Lemma ret_lts_named ds m r : validate_method ds m = true -> In r (ret_lts m) -> r < m_n m.
Proof.
  unfold validate_method. intros [H _]%andb_true_iff Hr. rewrite forallb_forall in H. now apply Nat.ltb_lt, H.
Qed.

Lemma validate_method_true ds m t : validate_method ds m = true ->
  In t (m_params m ++ m_ret m) -> validate_ty ds (m_env m) t = true.
Proof. unfold validate_method. intros [_ H]%andb_true_iff. rewrite forallb_forall in H. apply H. Qed.

Lemma rust_edge_recorded ds m : defs_ok ds -> validate_defs ds = true -> sig_ok ds m -> validate_method ds m = true ->
  forall u v, rust_edge ds m u v -> u < m_n m -> reach (m_env m) u v /\ v < m_n m.
Proof.
  intros Hok Hvd Hsig Hvm u v H Hun. pose proof Hsig as [Hd Hall].
  destruct H as [u v Hc|t tid args x y u v Ht Hu Hwf Hx Hy].
  - (* a bound the signature writes down or implies: it is among m_ops, unless a reference spelled `Self` implies it;
       and what is among m_ops is recorded (at least as a chain) and in range *)
    assert (Hrec : In (u, v) (constraints (m_ops m)) -> reach (m_env m) u v /\ v < m_n m).
    { intros Hin. split; [now apply build_complete|]. eapply ops_range; eassumption. }
    apply sig_ops_In in Hc as [Hc|(t & Ht & Hc)].
    + apply Hrec, sig_ops_In. now left.
    + pose proof Hc as (sp & opt & tid & args & -> & _ & Hvin & Hv')%ref_ops_In. destruct sp.
      * (* `&'u Self<.. 'v ..>`: nothing was recorded, but validation insisted on a declared bound 'u: 'v *)
        split; [|exact Hv']. destruct (In_nth_error _ _ Hvin) as [dl Hdl].
        destruct (Hall _ Ht tid args eq_refl) as (Hlen & _ & _).
        assert (Hdl' : dl < d_n (def_of ds tid)) by (rewrite <- Hlen; apply nth_error_Some; congruence).
        assert (Hu : u < length (m_env m)) by now rewrite (proj1 (m_env_ok _ _ Hsig)).
        destruct (validate_ty_self ds (m_env m) _ tid args u dl v (validate_method_true ds m _ Hvm Ht) eq_refl
                    (or_introl eq_refl) Hu Hdl' Hdl) as [->|Hdir].
        -- constructor.
        -- now apply clos_rt1n_step.
      * (* written by name: ty_ops is ref_ops *)
        apply Hrec, sig_ops_In. right. exists (TOpaque false opt (Some (Lt u)) tid args). split; [exact Ht|exact Hc].
  - (* a bound that a definition used in the signature requires of its arguments *)
    destruct (wf_edge_reach ds Hok Hvd tid x y Hwf) as (Hx' & _ & Hr).
    exact (use_recorded ds (m_env m) (m_n m) t tid args x y u v (def_of_ok ds tid Hok) (m_env_ok ds m Hsig) (Hall t Ht)
             (validate_method_true ds m t Hvm Ht) Hu Hx' Hr Hx Hy Hun).
Qed.

(* everything the tool records is a bound the signature writes down or implies *)
Lemma m_ops_sub_spec m p : In p (constraints (m_ops m)) -> In p (constraints (spec_ops m)).
Proof.
  unfold m_ops, spec_ops. rewrite !sig_ops_In. intros [H|(t & Ht & H%ty_ops_sub)]; eauto.
Qed.

(* for an accepted method, a lifetime is forced to outlive 'r by Rust's rules iff the recorded bounds reach it from 'r *)
Theorem outlives_iff_recorded ds m : defs_ok ds -> validate_defs ds = true -> sig_ok ds m -> validate_method ds m = true ->
  forall r x, r < m_n m -> (outlives ds m r x <-> reach (m_env m) r x).
Proof.
  intros Hok Hvd Hsig Hvm r x Hr. split; intros H.
  - apply (clos_rt1n_sub_inv (rust_edge ds m) _ (fun a => a < m_n m)) with (a := r); auto.
    intros a b Ha Hab. destruct (rust_edge_recorded ds m Hok Hvd Hsig Hvm a b Hab Ha). auto.
  - revert H. apply clos_rt1n_sub. intros a b H%build_sound%m_ops_sub_spec. now apply clos_rt1n_step, re_own.
Qed.

Lemma edges_for_In m r e :
  In e (edges_for m r) <-> exists p t, nth_error (m_params m) p = Some t /\ In e (visit_param (all_longer (m_env m) r) p t).
Proof. apply in_flat_map_seq. Qed.

Lemma nonstatic_In u ls : In u (nonstatic ls) <-> In (Lt u) ls.
Proof.
  unfold nonstatic. rewrite in_flat_map. split.
  - intros ([|i] & Hl & Hu); [easy|]. now destruct Hu as [<-|[]].
  - intros H. exists (Lt u). split; [exact H|now left].
Qed.

Lemma touches_iff ls t : touches ls t = true <-> exists u, In (Lt u) (ty_lts t) /\ In u ls.
Proof. unfold touches. rewrite existsb_exists. setoid_rewrite nonstatic_In. setoid_rewrite memb_In. reflexivity. Qed.

Lemma visit_param_In ls p t e : In e (visit_param ls p t) <->
  match t with
  | TPrim => False
  | TStruct opt _ args => exists slot u, e = EStruct p slot opt /\ nth_error args slot = Some (Lt u) /\ In u ls
  | TOpaque _ _ _ _ _ => e = EOpaque p /\ exists u, In (Lt u) (ty_lts t) /\ In u ls
  | TSlice opt _ => e = (if opt then EPanic p else ESlice p) /\ exists u, In (Lt u) (ty_lts t) /\ In u ls
  end.
Proof.
  assert (H : forall e0, In e (if touches ls t then [e0] else []) <-> e = e0 /\ exists u, In (Lt u) (ty_lts t) /\ In u ls).
  { intros e0. rewrite <- touches_iff. destruct (touches ls t); cbn [In]; [|easy]. split; [intros [<-|[]]|intros [-> _]]; auto. }
  destruct t as [| | [|] b|opt tid args]; cbn [visit_param]; try apply H; [reflexivity|].
  rewrite in_flat_map_seq. split.
  - intros (slot & [|u] & Hi & He); cbn [fst snd] in He; [easy|].
    destruct (memb u ls) eqn:Hm; [|easy]. destruct He as [<-|[]]. apply memb_In in Hm. eauto.
  - intros (slot & u & -> & Hn & Hu%memb_In). exists slot, (Lt u). split; [exact Hn|].
    cbn [fst snd]. rewrite Hu. now left.
Qed.

(* run with a list that holds exactly the lifetimes outliving 'r, visit_param over the parameters is Spec.spec_edge,
   the optional slices apart *)
Lemma visit_params_spec ds m r ls : (forall u, In u ls <-> outlives ds m r u) -> no_borrowed_opt_slice ds m r ->
  forall e, (exists p t, nth_error (m_params m) p = Some t /\ In e (visit_param ls p t)) <-> spec_edge ds m r e.
Proof.
  intros Hiff Hnp e. split.
  - (* what visit_param reports is required: by the type of the parameter *)
    intros (p & [|sp opt b tid args|[|] b|opt tid args] & Hp & He%visit_param_In).
    + destruct He.
    + destruct He as (-> & u & Hu & Ho%Hiff). exists sp, opt, b, tid, args, u. auto.
    + (* an optional slice: a report (EPanic) is what no_borrowed_opt_slice excludes *)
      destruct He as (_ & u & Hu & Ho%Hiff). destruct (Hnp p b u Hp Hu Ho).
    + destruct He as (-> & u & Hu & Ho%Hiff). exists false, b, u. auto.
    + destruct He as (slot & u & -> & Hn & Ho%Hiff). exists tid, args, u. auto.
  - (* what is required is reported: by the kind of edge *)
    destruct e as [p|p|p slot opt|p]; cbn [spec_edge].
    + intros (sp & opt & b & tid & args & u & Hp & Hu & Ho%Hiff). exists p, (TOpaque sp opt b tid args).
      split; [exact Hp|apply visit_param_In; eauto].
    + (* a slice: not an optional one, by no_borrowed_opt_slice *)
      intros ([|] & b & u & Hp & Hu & Ho); [destruct (Hnp p b u Hp Hu Ho)|]. apply Hiff in Ho. exists p, (TSlice false b).
      split; [exact Hp|apply visit_param_In; eauto].
    + intros (tid & args & u & Hp & Hn & Ho%Hiff). exists p, (TStruct opt tid args).
      split; [exact Hp|apply visit_param_In; eauto].
    + intros [].
Qed.

(* the borrow analysis reports, for an output lifetime 'r of an accepted method, exactly the inputs whose type mentions
   a lifetime that Rust's rules force to outlive 'r *)
Theorem borrow_edges_exact ds m : defs_ok ds -> validate_defs ds = true -> sig_ok ds m -> validate_method ds m = true ->
  forall r, r < m_n m -> no_borrowed_opt_slice ds m r ->
  forall e, In e (edges_for m r) <-> spec_edge ds m r e.
Proof.
  intros Hok Hvd Hsig Hvm r Hr Hnp e. rewrite edges_for_In. apply visit_params_spec; [|exact Hnp].
  intros u. rewrite all_longer_is_closure. symmetry. now apply outlives_iff_recorded.
Qed.

Lemma insert_sorted_In x y l : In y (insert_sorted x l) <-> y = x \/ In y l.
Proof.
  (* IH is cleared before each tauto: an equivalence among the hypotheses makes it many times dearer *)
  rewrite (Nat.eq_sym_iff y x). induction l as [|z l IH]; cbn [insert_sorted In]; [tauto|].
  destruct (x <? z); [clear IH; cbn [In]; tauto|].
  destruct (Nat.eqb_spec x z) as [->|_]; cbn [In]; [|rewrite IH]; clear IH; tauto.
Qed.

Lemma sort_dedup_In y l : In y (sort_dedup l) <-> In y l.
Proof.
  induction l as [|x l IH]; cbn [sort_dedup fold_right In]; [tauto|]. fold (sort_dedup l).
  rewrite insert_sorted_In, IH, (Nat.eq_sym_iff y x). clear IH. tauto.
Qed.

(* every key of the borrow map is a lifetime of the return type and vice versa; entries do not depend on the other keys
   (so the extra keys the JS backend asks for with force_include_slices change nothing for the return lifetimes) *)
Theorem borrow_map_keys m r : In r (map fst (borrow_map m)) <-> In r (ret_lts m).
Proof. unfold borrow_map. rewrite map_map. cbn [fst]. rewrite map_id. apply sort_dedup_In. Qed.

Theorem borrow_map_entry m r ls es : In (r, (ls, es)) (borrow_map m) -> es = edges_for m r.
Proof. unfold borrow_map. now intros (r' & [= <- _ <-] & _)%in_map_iff. Qed.

Lemma decl_okb_sound n decl : decl_okb n decl = true -> decl_ok n decl.
Proof.
  unfold decl_okb, decl_ok. rewrite forallb_forall. intros H l ss [Hl Hs]%H%andb_true_iff. cbn [fst snd] in *.
  rewrite forallb_forall in Hs. split; [now apply Nat.ltb_lt|]. intros s Hin%Hs. now apply Nat.ltb_lt.
Qed.

Lemma lt_okb_sound l : lt_okb l = true -> lt_ok l.
Proof. destruct l as [|i]; [discriminate|]. now exists i. Qed.

Lemma use_okb_sound ds t : use_okb ds t = true -> use_ok ds t.
Proof.
  unfold use_okb, use_ok. intros H tid args Hu. rewrite Hu in H.
  apply andb_true_iff in H as [[H1%Nat.eqb_eq H2]%andb_true_iff H3]. rewrite forallb_forall in H2, H3.
  auto using lt_okb_sound.
Qed.

Lemma def_okb_sound ds d : def_okb ds d = true -> def_ok ds d.
Proof.
  unfold def_okb, def_ok. intros [H1 H2]%andb_true_iff. rewrite forallb_forall in H2.
  split; [now apply decl_okb_sound|]. intros t [Hu Hr]%H2%andb_true_iff. rewrite forallb_forall in Hr.
  split; [now apply use_okb_sound|]. intros i Hi%Hr. now apply Nat.ltb_lt.
Qed.

Lemma defs_okb_sound ds : defs_okb ds = true -> defs_ok ds.
Proof. unfold defs_okb, defs_ok. rewrite forallb_forall. auto using def_okb_sound. Qed.

Lemma sig_okb_sound ds m : sig_okb ds m = true -> sig_ok ds m.
Proof.
  unfold sig_okb, sig_ok. intros [H1 H2]%andb_true_iff. rewrite forallb_forall in H2.
  auto using decl_okb_sound, use_okb_sound.
Qed.

(* the first sentence of property C04 in properties.jsonl, with the well-formedness hypotheses in their decidable form
   and 'r a lifetime of the return type *)
Theorem borrow_edges_exact_b ds m r :
  defs_okb ds = true -> validate_defs ds = true -> sig_okb ds m = true -> validate_method ds m = true ->
  In r (ret_lts m) -> no_borrowed_opt_slice ds m r ->
  forall e, In e (edges_for m r) <-> spec_edge ds m r e.
Proof.
  intros H1 H2 H3 H4 Hr Hn.
  apply borrow_edges_exact; eauto using defs_okb_sound, sig_okb_sound, ret_lts_named.
Qed.

(* the hypotheses can be met together; without validation, or with a borrowed optional slice, the statement fails *)
Module Examples.
  (* Op;  struct S<'x, 'y: 'x> { a: &'x Op, b: &'y Op };  struct Outer<'u, 'v: 'u> { inner: S<'u, 'v> } *)
  Definition ds : defs :=
    [ mkDef 0 [] [];
      mkDef 2 [(1, [0])] [TOpaque false false (Some (Lt 0)) 0 []; TOpaque false false (Some (Lt 1)) 0 []];
      mkDef 2 [(1, [0])] [TStruct false 1 [Lt 0; Lt 1]] ].
  (* fn f<'a, 'b: 'a, 'c: 'b>(o: Outer<'a, 'b>, p: &'c Op, q: &Op) -> &'a Op *)
  Definition m : msig :=
    mkSig 3 [(1, [0]); (2, [1])] [TStruct false 2 [Lt 0; Lt 1]; TOpaque false false (Some (Lt 2)) 0 []; TOpaque false false (Some (Lt 3)) 0 []]
          [TOpaque false false (Some (Lt 0)) 0 []].

  Example hypotheses_hold :
    defs_okb ds = true /\ validate_defs ds = true /\ sig_okb ds m = true /\ validate_method ds m = true /\ In 0 (ret_lts m).
  Proof. repeat split. now left. Qed.

  Example edges : edges_for m 0 = [EStruct 0 0 false; EStruct 0 1 false; EOpaque 1].
  Proof. reflexivity. Qed.

  (* the same method without the bound 'b: 'a that Outer requires is rejected ... *)
  Definition m_unrestated : msig :=
    mkSig 3 [(2, [1])] [TStruct false 2 [Lt 0; Lt 1]; TOpaque false false (Some (Lt 2)) 0 []; TOpaque false false (Some (Lt 3)) 0 []]
          [TOpaque false false (Some (Lt 0)) 0 []].
  Example unrestated_is_rejected : validate_method ds m_unrestated = false.
  Proof. reflexivity. Qed.

  (* ... and it has to be: the analysis alone would miss the 'v slot, which Rust lets the return value borrow from *)
  Example unrestated_misses_an_edge :
    spec_edge ds m_unrestated 0 (EStruct 0 1 false) /\ ~ In (EStruct 0 1 false) (edges_for m_unrestated 0).
  Proof.
    split.
    - exists 2, [Lt 0; Lt 1], 1. repeat split. apply clos_rt1n_step.
      apply (re_use ds m_unrestated (TStruct false 2 [Lt 0; Lt 1]) 2 [Lt 0; Lt 1] 0 1 0 1); try reflexivity; [now left|].
      apply wf_own. now left.
    - vm_compute. intros [[=]|[]].
  Qed.

  (* the recorded finding: fn g<'a>(s: Option<&'a [u8]>) -> &'a Op makes visit_param hit unreachable!() *)
  Definition m_opt_slice : msig := mkSig 1 [] [TSlice true (Some (Lt 0))] [TOpaque false false (Some (Lt 0)) 0 []].
  Example opt_slice_panics :
    validate_method ds m_opt_slice = true /\ edges_for m_opt_slice 0 = [EPanic 0] /\ ~ no_borrowed_opt_slice ds m_opt_slice 0.
  Proof.
    repeat split. intros H. apply (H 0 (Some (Lt 0)) 0); [reflexivity|now left|constructor].
  Qed.

  (* impl<'h> H<'h> { fn pick<'a>(&self, other: &'a Self, x: &'h Op) -> &'a Op }: with the type written `Self` nothing is
     recorded for the reference, so the method is rejected unless 'h: 'a is declared; written as `&'a H<'h>` the implied
     bound is recorded and the method is accepted. Either way the accepted method reports `x`. *)
  Definition dh : defs := [mkDef 0 [] []; mkDef 1 [] []].
  Definition pick (sp : bool) (decl : list (nat * list nat)) : msig :=
    mkSig 2 decl [TOpaque false false (Some (Lt 2)) 1 [Lt 0]; TOpaque sp false (Some (Lt 1)) 1 [Lt 0]; TOpaque false false (Some (Lt 0)) 0 []]
          [TOpaque false false (Some (Lt 1)) 0 []].
  Example self_spelling :
    validate_method dh (pick true []) = false /\ validate_method dh (pick false []) = true /\ validate_method dh (pick true [(0, [1])]) = true /\
    edges_for (pick false []) 1 = [EOpaque 0; EOpaque 1; EOpaque 2] /\ edges_for (pick true [(0, [1])]) 1 = [EOpaque 0; EOpaque 1; EOpaque 2].
  Proof. repeat split. Qed.
End Examples.
