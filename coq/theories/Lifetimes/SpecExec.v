(* C04 — an executable version of Spec.outlives, proved equivalent to it, so that the specification itself (not only the
   model of the tool) can be confronted with rustc's verdicts on generated signatures. *)
From Coq Require Import List Arith Lia.
Import ListNotations.
From DV Require Import Base.Lists Base.Closure Lifetimes.Model Lifetimes.Spec Lifetimes.Proofs.

Definition subst_pairs (args : list lt) (ps : list (nat * nat)) : list (nat * nat) :=
  flat_map (fun p => match nth_error args (fst p), nth_error args (snd p) with
                     | Some (Lt u), Some (Lt v) => [(u, v)]
                     | _, _ => []
                     end) ps.

(* requirements of a definition on its parameters, through nested field types (fuel = nesting depth + 1) *)
Fixpoint wf_pairs (fuel : nat) (ds : defs) (tid : nat) : list (nat * nat) :=
  match fuel with
  | 0 => []
  | S f =>
      constraints (d_ops (def_of ds tid)) ++
      flat_map (fun t => match ty_use t with
                         | Some (tid', args) => subst_pairs args (wf_pairs f ds tid')
                         | None => []
                         end) (d_fields (def_of ds tid))
  end.

(* nesting depth through any use of a definition (opaque definitions have no fields: depth 0) *)
Fixpoint udepth_le (ds : defs) (d : nat) (tid : nat) : bool :=
  forallb (fun t => match ty_use t with
                    | Some (tid', _) => match d with 0 => false | S d' => udepth_le ds d' tid' end
                    | None => true
                    end) (d_fields (def_of ds tid)).

Lemma subst_pairs_In args ps u v :
  In (u, v) (subst_pairs args ps) <-> exists x y, In (x, y) ps /\ nth_error args x = Some (Lt u) /\ nth_error args y = Some (Lt v).
Proof.
  unfold subst_pairs. rewrite in_flat_map. split.
  - intros ([x y] & Hin & H). cbn [fst snd] in H. exists x, y.
    destruct (nth_error args x) as [[|a]|], (nth_error args y) as [[|b]|]; try contradiction. destruct H as [[= -> ->]|[]]. auto.
  - intros (x & y & Hin & Hx & Hy). exists (x, y). cbn [fst snd]. rewrite Hx, Hy. cbn. auto.
Qed.

(* the pairs a list of types contributes through the definitions it uses, [P tid] being the pairs of definition [tid]:
   the shape of Spec.wf_nested and of Spec.re_use *)
Lemma use_pairs_In (P : nat -> list (nat * nat)) ts u v :
  In (u, v) (flat_map (fun t => match ty_use t with Some (tid, args) => subst_pairs args (P tid) | None => [] end) ts) <->
  exists t tid args x y, In t ts /\ ty_use t = Some (tid, args) /\ In (x, y) (P tid) /\
                         nth_error args x = Some (Lt u) /\ nth_error args y = Some (Lt v).
Proof.
  rewrite in_flat_map. split.
  - intros (t & Ht & H). destruct (ty_use t) as [[tid args]|] eqn:Hu; [|easy].
    apply subst_pairs_In in H as (x & y & H). exists t, tid, args, x, y. auto.
  - intros (t & tid & args & x & y & Ht & Hu & H). exists t. rewrite Hu, subst_pairs_In. eauto.
Qed.

Lemma udepth_child ds f tid t tid' args :
  udepth_le ds f tid = true -> In t (d_fields (def_of ds tid)) -> ty_use t = Some (tid', args) ->
  exists f', f = S f' /\ udepth_le ds f' tid' = true.
Proof.
  intros H Hin Hu. destruct f as [|f']; cbn [udepth_le] in H; rewrite forallb_forall in H; specialize (H _ Hin); rewrite Hu in H.
  - discriminate.
  - eauto.
Qed.

(* any fuel above the nesting depth will do *)
Theorem wf_pairs_exact ds n : forall f tid x y,
  udepth_le ds f tid = true -> f < n -> (In (x, y) (wf_pairs n ds tid) <-> wf_edge ds tid x y).
Proof.
  induction n as [|n IH]; intros f tid x y Hd Hn; [lia|].
  cbn [wf_pairs]. rewrite in_app_iff, use_pairs_In. split.
  - intros [H|(t & tid' & args & x' & y' & Ht & Hu & Hin & Hx & Hy)]; [now apply wf_own|].
    destruct (udepth_child _ _ _ _ _ _ Hd Ht Hu) as (f' & -> & Hd'). apply (IH f') in Hin; [|exact Hd'|lia]. eapply wf_nested; eauto.
  - intros H. inversion H as [? ? ? Hc|? t tid' args x' y' ? ? Ht Hu Hw Hx Hy]; subst; [now left|].
    destruct (udepth_child _ _ _ _ _ _ Hd Ht Hu) as (f' & -> & Hd'). apply (IH f') in Hw; [|exact Hd'|lia].
    right. exists t, tid', args, x', y'. auto.
Qed.

(* all pairs of a method signature, and the closure computed with the same DFS as the tool's (proved correct in Proofs.v) *)
Definition rust_pairs (fuel : nat) (ds : defs) (m : msig) : list (nat * nat) :=
  constraints (spec_ops m) ++
  flat_map (fun t => match ty_use t with
                     | Some (tid, args) => subst_pairs args (wf_pairs fuel ds tid)
                     | None => []
                     end) (m_params m ++ m_ret m).

Definition bound (ps : list (nat * nat)) : nat := S (fold_left (fun a p => Nat.max a (Nat.max (fst p) (snd p))) ps 0).
Definition outlives_b (fuel : nat) (ds : defs) (m : msig) (r x : nat) : bool :=
  let ps := rust_pairs fuel ds m in
  memb x (all_longer (add_pairs (empty_graph (Nat.max (S r) (bound ps))) ps) r).

Lemma fold_max_mono ps : forall a b, a <= b ->
  fold_left (fun a p => Nat.max a (Nat.max (fst p) (snd p))) ps a <= fold_left (fun a p => Nat.max a (Nat.max (fst p) (snd p))) ps b.
Proof. induction ps as [|p ps IH]; intros a b H; cbn [fold_left]; [exact H|]. apply IH. lia. Qed.

Lemma bound_gt ps u v : In (u, v) ps -> u < bound ps /\ v < bound ps.
Proof. intros H. apply (fold_left_max_ge (fun p => Nat.max (fst p) (snd p)) ps 0) in H. unfold bound. cbn in H. lia. Qed.

Lemma rust_pairs_exact ds m f n : (forall tid, udepth_le ds f tid = true) -> f < n ->
  forall u v, In (u, v) (rust_pairs n ds m) <-> rust_edge ds m u v.
Proof.
  intros Hd Hn u v. pose proof (fun tid x y => wf_pairs_exact ds n f tid x y (Hd tid) Hn) as W.
  unfold rust_pairs. rewrite in_app_iff, use_pairs_In. split.
  - intros [H|(t & tid & args & x & y & Ht & Hu & Hin & Hx & Hy)]; [now apply re_own|].
    apply W in Hin. eapply re_use; eauto.
  - intros [? ? Hc|t tid args x y ? ? Ht Hu Hw Hx Hy]; [now left|]. apply W in Hw.
    right. exists t, tid, args, x, y. auto.
Qed.

(* the executable specification decides Spec.outlives *)
Theorem outlives_b_exact ds m f r x : (forall tid, udepth_le ds f tid = true) ->
  (outlives_b (S f) ds m r x = true <-> outlives ds m r x).
Proof.
  intros Hd. unfold outlives_b, outlives. rewrite memb_In, all_longer_pairs.
  - apply clos_rt1n_iff, (rust_pairs_exact ds m f); auto.
  - intros a b H. destruct (bound_gt _ a b H). lia.
Qed.

(* correspondence: rustc accepts `fn probe<..>(.., v: &'x u8) -> &'r u8 { v }` under this signature *)
Definition agree_rustc (fuel : nat) (ds : defs) (m : msig) (r x : nat) (accepted : bool) : bool :=
  Bool.eqb (outlives_b fuel ds m r x) accepted.
