(* C04 — the struct accessors evaluate to exactly the fields that carry the lifetime *)
From Coq Require Import List Arith Lia.
Import ListNotations.
From DV Require Import Base.Lists Lifetimes.Model Lifetimes.Struct.

Lemma inner_slots_In args l slot : In slot (inner_slots args l) <-> nth_error args slot = Some (Lt l).
Proof.
  unfold inner_slots. rewrite in_flat_map_seq. split.
  - intros (i & a & Hk & H). cbn [fst snd] in H.
    destruct a as [|u]; [easy|]. destruct (Nat.eqb_spec u l) as [->|]; [|easy]. now destruct H as [<-|[]].
  - intros H. exists slot, (Lt l). split; [exact H|]. cbn [fst snd]. rewrite Nat.eqb_refl. now left.
Qed.

Lemma uses_struct o tid args l : uses (TStruct o tid args) l = true <-> exists slot, nth_error args slot = Some (Lt l).
Proof.
  unfold uses. cbn [ty_lts]. rewrite existsb_exists. split.
  - intros ([|u] & Ha & H); [easy|]. apply Nat.eqb_eq in H as ->. now apply In_nth_error.
  - intros [slot H]. exists (Lt l). split; [eapply nth_error_In, H|apply Nat.eqb_refl].
Qed.

(* an entry of the accessor: a field that is not a struct and mentions the lifetime, or a slot of a struct field the
   lifetime is plugged into *)
Lemma accessor_In d l a : In a (accessor d l) <->
  exists fi t, nth_error (d_fields d) fi = Some t /\
    (((forall o tid args, t <> TStruct o tid args) /\ uses t l = true /\ a = AField fi) \/
     (exists o tid args slot, t = TStruct o tid args /\ nth_error args slot = Some (Lt l) /\ a = ANested fi slot)).
Proof.
  unfold accessor. rewrite in_flat_map_seq. split.
  - intros (fi & t & Hk & H). cbn [fst snd] in H. exists fi, t. split; [exact Hk|].
    destruct (uses t l) eqn:Hu; [|easy].
    destruct t as [|sp opt b tid args|opt b|opt tid args].
    1-3: (* TPrim, TOpaque, TSlice: the field itself is the entry *) destruct H as [<-|[]]; left; easy.
    (* TStruct: one entry for each slot the lifetime is plugged into *)
    right. apply in_map_iff in H as (slot & <- & Hs%inner_slots_In). exists opt, tid, args, slot. auto.
  - intros (fi & t & Hn & H). exists fi, t. split; [exact Hn|]. cbn [fst snd].
    destruct H as [(Hs & -> & ->)|(o & tid & args & slot & -> & Hslot & ->)].
    + destruct t as [|sp opt b tid args|opt b|opt tid args].
      1-3: (* TPrim, TOpaque, TSlice *) now left.
      (* TStruct is what Hs excludes *)
      now destruct (Hs opt tid args).
    + rewrite (proj2 (uses_struct o tid args l)) by eauto. now apply in_map, inner_slots_In.
Qed.

Lemma sdepth_child ds f tid fi o tid' args :
  sdepth_le ds f tid = true -> nth_error (d_fields (def_of ds tid)) fi = Some (TStruct o tid' args) ->
  exists f', f = S f' /\ sdepth_le ds f' tid' = true.
Proof.
  intros H Hn. destruct f as [|f']; cbn [sdepth_le] in H; rewrite forallb_forall in H; specialize (H _ (nth_error_In _ _ Hn)); cbn in H.
  - discriminate.
  - eauto.
Qed.

(* for structs nested to any depth, `_fieldsForLifetimeX` yields exactly the fields carrying the lifetime plugged
   into X; any fuel above the nesting depth will do *)
Theorem expand_exact_above ds n : forall f tid l p,
  sdepth_le ds f tid = true -> f < n -> (In p (expand ds n tid l) <-> carries ds tid l p).
Proof.
  induction n as [|n IH]; intros f tid l p Hd Hf; [lia|]. cbn [expand]. rewrite in_flat_map. split.
  - intros (a & Ha & Hp). apply accessor_In in Ha as (fi & t & Hn & [Leaf|Nested]).
    + destruct Leaf as (Hs & Hu & ->). destruct Hp as [<-|[]]. eapply c_leaf; eauto.
    + destruct Nested as (o & tid' & args & slot & -> & Hslot & ->).
      rewrite Hn in Hp. apply in_map_iff in Hp as (q & <- & Hq).
      destruct (sdepth_child _ _ _ _ _ _ _ Hd Hn) as (f' & -> & Hd'). apply (IH f') in Hq; [|exact Hd'|lia].
      eapply c_nested; eauto.
  - intros Hc. inversion Hc as [? ? fi t Hn Hs Hu|? ? fi o tid' args slot q Hn Hslot Hq]; subst.
    + exists (AField fi). split; [|now left]. apply accessor_In. exists fi, t. auto.
    + exists (ANested fi slot). split.
      { apply accessor_In. exists fi, (TStruct o tid' args). split; [exact Hn|]. right. exists o, tid', args, slot. auto. }
      rewrite Hn. apply in_map.
      destruct (sdepth_child _ _ _ _ _ _ _ Hd Hn) as (f' & -> & Hd'). apply (IH f'); [exact Hd'|lia|exact Hq].
Qed.

Theorem expand_exact ds f tid l p :
  sdepth_le ds f tid = true -> (In p (expand ds (S f) tid l) <-> carries ds tid l p).
Proof. intros Hd. apply (expand_exact_above ds (S f) f); [exact Hd|lia]. Qed.

Example expand_example :
  (* Inner<'x,'y> { a: &'x Op, b: &'y Op }; Outer<'u> { inner: Inner<'u,'u>, o: &'u Op } *)
  let ds := [mkDef 0 [] []; mkDef 2 [] [TOpaque false false (Some (Lt 0)) 0 []; TOpaque false false (Some (Lt 1)) 0 []];
             mkDef 1 [] [TStruct false 1 [Lt 0; Lt 0]; TOpaque false false (Some (Lt 0)) 0 []]] in
  sdepth_le ds 1 2 = true /\ accessor (def_of ds 2) 0 = [ANested 0 0; ANested 0 1; AField 1] /\
  expand ds 2 2 0 = [[0; 0]; [0; 1]; [1]].
Proof. repeat split; vm_compute; reflexivity. Qed.
