From Coq Require Import List NArith Bool Lia.
Import ListNotations.
From DV Require Import Layout.Model.
Local Open Scope N_scope.

Lemma pad_is_round_up x a : 0 < a -> x + (a - x mod a) mod a = round_up x a.
Proof.
  intros Ha. unfold round_up.
  pose proof (N.div_mod x a ltac:(lia)) as Hx. pose proof (N.mod_lt x a ltac:(lia)) as Hr.
  set (q := x / a) in *. set (r := x mod a) in *. destruct (N.eq_dec r 0) as [E|E].
  - rewrite E, N.sub_0_r, N.mod_same, N.add_0_r by lia.
    rewrite <- (N.div_unique (x + a - 1) a q (a - 1)); lia.
  - rewrite (N.mod_small (a - r) a) by lia.
    rewrite <- (N.div_unique (x + a - 1) a (q + 1) (r - 1)); lia.
Qed.

Lemma round_up_ge x a : 0 < a -> x <= round_up x a.
Proof. intros Ha. rewrite <- pad_is_round_up by exact Ha. apply N.le_add_r. Qed.

Lemma round_up_divide x a : (a | round_up x a).
Proof. apply N.divide_factor_r. Qed.

Lemma round_up_mod x a : 0 < a -> round_up x a mod a = 0.
Proof. intros Ha. apply N.mod_mul. lia. Qed.

Lemma round_up_id x a : 0 < a -> x mod a = 0 -> round_up x a = x.
Proof.
  intros Ha Hx. rewrite <- pad_is_round_up by exact Ha. rewrite Hx, N.sub_0_r, N.mod_same by lia. apply N.add_0_r.
Qed.

(* struct_info asks whether the end is aligned, field_step whether the padding is zero: the same question *)
Lemma pad_eqb_0 x a : 0 < a -> ((a - x mod a) mod a =? 0) = (x mod a =? 0).
Proof.
  intros Ha. pose proof (N.mod_lt x a ltac:(lia)) as Hr. set (r := x mod a) in *.
  destruct (N.eqb_spec r 0) as [->|E].
  - now rewrite N.sub_0_r, N.mod_same by lia.
  - rewrite N.mod_small by lia. apply N.eqb_neq. lia.
Qed.

(* the run-time assertion `padding % prev_align == 0` of layout.rs can never fire: alignments divide one another,
   and everything up to the padding is a multiple of the previous one *)
Lemma pad_divide p a x : 0 < a -> (p | a) \/ (a | p) -> (p | x) -> (p | (a - x mod a) mod a).
Proof.
  intros Ha [Hpa|Hap] Hx.
  - apply (N.divide_add_cancel_r p x); [exact Hx|]. rewrite pad_is_round_up by exact Ha.
    eapply N.divide_trans; [exact Hpa|apply round_up_divide].
  - replace (x mod a) with 0.
    + rewrite N.sub_0_r, N.mod_same by lia. apply N.divide_0_r.
    + symmetry. apply N.mod_divide; [lia|]. eapply N.divide_trans; eassumption.
Qed.

(* induction over field types that reaches the fields nested in the lists *)
Lemma fty_ind' (P : fty -> Prop) :
  (forall s, P (FPrim s)) -> P FEnum -> P FOpaque -> P FSlice -> (forall fs, Forall P fs -> P (FStruct fs)) ->
  (forall p, P p -> P (FOpt p)) -> forall t, P t.
Proof.
  intros HP HE HO HS HR HOp. fix IH 1. intros [s| | | |fs|p].
  - apply HP.
  - exact HE.
  - exact HO.
  - exact HS.
  - apply HR. induction fs as [|t fs IHfs]; constructor; [apply IH|exact IHfs].
  - apply HOp, IH.
Qed.

Definition pow2_8 (a : N) : Prop := a = 1 \/ a = 2 \/ a = 4 \/ a = 8.
Definition good (t : fty) : Prop := pow2_8 (talign t) /\ tsize t mod talign t = 0.

Lemma pow2_8_gt_0 a : pow2_8 a -> 0 < a.
Proof. unfold pow2_8. lia. Qed.

Lemma pow2_8_chain a b : pow2_8 a -> pow2_8 b -> (a | b) \/ (b | a).
Proof.
  intros [->|[->|[->| ->]]] [->|[->|[->| ->]]]; solve [left; now apply N.mod_divide | right; now apply N.mod_divide].
Qed.

Lemma good_pos t : good t -> 0 < talign t.
Proof. intros [Hp _]. now apply pow2_8_gt_0. Qed.

Lemma good_divide t : good t -> (talign t | tsize t).
Proof. intros Hg. apply N.mod_divide; [pose proof (good_pos t Hg); lia|apply Hg]. Qed.

Lemma set_last_padding_snoc l i c w : set_last_padding (l ++ [i]) c w = l ++ [mkF (f_off i) c w (f_sc i)].
Proof. unfold set_last_padding. rewrite rev_unit. cbn [rev]. now rewrite rev_involutive. Qed.

Lemma set_last_padding_offs fs c w : map f_off (set_last_padding fs c w) = map f_off fs.
Proof. destruct fs as [|i l _] using rev_ind; [reflexivity|]. now rewrite set_last_padding_snoc, !map_app. Qed.

Lemma set_last_padding_length fs c w : length (set_last_padding fs c w) = length fs.
Proof. destruct fs as [|i l _] using rev_ind; [reflexivity|]. now rewrite set_last_padding_snoc, !app_length. Qed.

(* what field_step, and struct_info at the end, do to the recorded fields once the gap [g] behind the last one is
   known: it becomes that field's padding, in units of its alignment [w] *)
Definition close (l : list finfo) (g w : N) : list finfo := if g =? 0 then l else set_last_padding l (g / w) w.

Lemma close_offs l g w : map f_off (close l g w) = map f_off l.
Proof. unfold close. destruct (g =? 0); [reflexivity|apply set_last_padding_offs]. Qed.

(* the loop of struct_field_info, as a function of the remaining fields *)
Definition loop (fs : list fty) (st : lstate) : lstate :=
  fold_left (fun st f => let '(sz, al, sc) := tsa f in field_step st sz al sc) fs st.
Definition st0 : lstate := mkL 0 0 1 [] Zst.

Lemma loop_cons f fs st : loop (f :: fs) st = loop fs (field_step st (tsize f) (talign f) (tsc f)).
Proof. unfold loop, tsize, talign, tsc. cbn [fold_left]. destruct (tsa f) as [[sz al] sc]. reflexivity. Qed.

Lemma field_step_next st sz al sc : 0 < al -> l_next (field_step st sz al sc) = round_up (l_next st) al + sz.
Proof. intros Ha. unfold field_step. cbn [l_next]. now rewrite pad_is_round_up. Qed.
Lemma field_step_fields st sz al sc :
  let padding := (al - l_next st mod al) mod al in
  l_fields (field_step st sz al sc) = close (l_fields st) padding (l_prevalign st) ++ [mkF (l_next st + padding) 0 1 sc].
Proof. reflexivity. Qed.
Lemma field_step_offs st sz al sc : 0 < al ->
  map f_off (l_fields (field_step st sz al sc)) = map f_off (l_fields st) ++ [round_up (l_next st) al].
Proof. intros Ha. rewrite field_step_fields, map_app, close_offs. cbn [map f_off]. now rewrite pad_is_round_up. Qed.

Lemma field_step_st0 sz al sc : 0 < al -> field_step st0 sz al sc = mkL al sz al [mkF 0 0 1 sc] (sc_add Zst sc).
Proof.
  intros Ha. unfold field_step, st0. cbn [l_next l_fields l_maxalign l_prevalign l_sc].
  now rewrite N.mod_0_l, N.sub_0_r, N.mod_same, N.max_0_l by lia.
Qed.

(* of [good], only the positivity of the alignments is used *)
Lemma loop_spec fs st :
  Forall good fs ->
  let st' := loop fs st in
  l_next st' = spec_end (l_next st) fs /\
  map f_off (l_fields st') = map f_off (l_fields st) ++ spec_offsets (l_next st) fs /\
  l_maxalign st' = fold_left (fun a f => N.max a (talign f)) fs (l_maxalign st).
Proof.
  intros Hg. revert st. induction Hg as [|f fs Hf _ IH]; intros st; cbn zeta.
  - cbn. now rewrite app_nil_r.
  - apply good_pos in Hf. rewrite loop_cons. destruct (IH (field_step st (tsize f) (talign f) (tsc f))) as (I1 & I2 & I3).
    rewrite field_step_next in I1, I2 by exact Hf. rewrite field_step_offs, <- app_assoc in I2 by exact Hf. auto.
Qed.

Lemma loop_maxalign fs : Forall good fs -> l_maxalign (loop fs st0) = spec_align fs.
Proof. intros Hg. destruct (loop_spec fs st0 Hg) as (_ & _ & L3). exact L3. Qed.

Lemma fold_max_init fs : forall a, fold_left (fun a f => N.max a (talign f)) fs a = N.max a (fold_left (fun a f => N.max a (talign f)) fs 0).
Proof.
  induction fs as [|f fs IH]; intros a; cbn [fold_left]; [lia|]. rewrite IH, (IH (N.max 0 (talign f))). lia.
Qed.

Lemma spec_align_cons f fs : spec_align (f :: fs) = N.max (talign f) (spec_align fs).
Proof. unfold spec_align. cbn [fold_left]. now rewrite fold_max_init, N.max_0_l. Qed.

Lemma spec_align_pow2 fs : Forall good fs -> fs <> [] -> pow2_8 (spec_align fs).
Proof.
  induction 1 as [|f fs [Hf _] _ IH]; intros Hne; [congruence|]. rewrite spec_align_cons.
  destruct fs as [|g fs']; [now rewrite N.max_0_r|]. apply (N.max_case _ _ pow2_8); [exact Hf|apply IH; discriminate].
Qed.

(* struct_info is the loop from [st0], closed by the tail padding up to the largest alignment *)
Lemma struct_info_loop fs : Forall good fs -> fs <> [] ->
  let st := loop fs st0 in
  let g := (spec_align fs - l_next st mod spec_align fs) mod spec_align fs in
  struct_info fs = (close (l_fields st) g (l_prevalign st), l_next st + g, spec_align fs, l_sc st).
Proof.
  intros Hg Hne. pose proof (pow2_8_gt_0 _ (spec_align_pow2 fs Hg Hne)) as Ha. rewrite <- (loop_maxalign fs Hg) in *.
  destruct fs as [|f fs']; [congruence|]. unfold close. now rewrite pad_eqb_0.
Qed.

(* the model computes the fold twice: in tsa for the type, in struct_info for the field list *)
Lemma tsa_struct fs : tsa (FStruct fs) = let '(_, size, align, sc) := struct_info fs in (size, align, sc).
Proof. now destruct fs. Qed.
Lemma tsize_opt p : tsize (FOpt p) = tsize p + talign p.
Proof. unfold tsize, talign. cbn [tsa]. now destruct (tsa p) as [[sz al] sc]. Qed.
Lemma talign_opt p : talign (FOpt p) = talign p.
Proof. unfold talign. cbn [tsa]. now destruct (tsa p) as [[sz al] sc]. Qed.

Lemma struct_info_spec fs :
  Forall good fs -> fs <> [] ->
  let '(infos, size, align, _) := struct_info fs in
  map f_off infos = spec_offsets 0 fs /\ size = spec_size fs /\ align = spec_align fs.
Proof.
  intros Hg Hne. pose proof (pow2_8_gt_0 _ (spec_align_pow2 fs Hg Hne)) as Ha.
  destruct (loop_spec fs st0 Hg) as (L1 & L2 & _).
  rewrite struct_info_loop, close_offs, pad_is_round_up, L1 by assumption. now split.
Qed.

Lemma wf_good t : wf t = true -> good t.
Proof.
  induction t as [s| | | |fs IH|p IH] using fty_ind'; intros Hw.
  - (* a primitive: its size, one of 1, 2, 4, 8, is its alignment *)
    assert (Hs : pow2_8 s) by (cbn in Hw; unfold pow2_8; rewrite !orb_true_iff, !N.eqb_eq in Hw; tauto).
    split; [exact Hs|]. change (s mod s = 0). apply N.mod_same. apply pow2_8_gt_0 in Hs. lia.
  - (* enum: 4 bytes, aligned to 4 *) now split; [do 2 right; left|].
  - (* opaque: a pointer, the same *) now split; [do 2 right; left|].
  - (* slice: 8 bytes, aligned to 4 *) now split; [do 2 right; left|].
  - (* struct: size and alignment are those of the repr(C) rule; the empty one is (4, 4) *)
    cbn [wf] in Hw. assert (Hg : Forall good fs) by (rewrite Forall_forall in *; rewrite forallb_forall in Hw; auto).
    destruct fs as [|f fs']; [now split; [do 2 right; left|]|].
    assert (Hne : f :: fs' <> []) by discriminate.
    pose proof (struct_info_spec _ Hg Hne) as H. pose proof (spec_align_pow2 _ Hg Hne) as Hp.
    unfold good, tsize, talign. rewrite tsa_struct. destruct (struct_info (f :: fs')) as [[[infos size] align] sc].
    cbn [fst snd]. destruct H as (_ & -> & ->). split; [exact Hp|]. apply round_up_mod, pow2_8_gt_0, Hp.
  - (* option: the payload and one more unit of its alignment *)
    cbn [wf] in Hw. apply andb_prop in Hw as [Hw _]. destruct (IH Hw) as [Hp Hm].
    unfold good. rewrite tsize_opt, talign_opt. split; [exact Hp|]. apply pow2_8_gt_0 in Hp.
    rewrite N.add_mod, Hm, N.mod_same, N.add_0_l by lia. apply N.mod_0_l. lia.
Qed.

Lemma wf_all_good fs : forallb wf fs = true -> Forall good fs.
Proof. rewrite forallb_forall, Forall_forall. auto using wf_good. Qed.

(* the offsets, size and alignment the JS backend computes are the repr(C) ones *)
Theorem offsets_are_reprC fs :
  forallb wf fs = true -> fs <> [] ->
  let '(infos, size, align, _) := struct_info fs in
  map f_off infos = spec_offsets 0 fs /\ size = spec_size fs /\ align = spec_align fs.
Proof. intros Hw. apply struct_info_spec, wf_all_good, Hw. Qed.

Definition padbytes (i : finfo) : N := f_padcount i * f_padwidth i.

(* every field is followed by exactly its typed padding: up to the next field, the last one up to [endp];
   a field that carries padding has it typed by its own alignment *)
Fixpoint pads_ok (fs : list fty) (infos : list finfo) (endp : N) : Prop :=
  match fs, infos with
  | [], [] => True
  | f :: fs', i :: infos' =>
      (f_padcount i = 0 \/ f_padwidth i = talign f) /\
      match fs', infos' with
      | [], [] => f_off i + tsize f + padbytes i = endp
      | _ :: _, j :: _ => f_off i + tsize f + padbytes i = f_off j /\ pads_ok fs' infos' endp
      | _, _ => False
      end
  | _, _ => False
  end.

Lemma close_snoc l i g w : f_padcount i = 0 -> 0 < w -> (w | g) ->
  exists i', close (l ++ [i]) g w = l ++ [i'] /\ f_off i' = f_off i /\
             (f_padcount i' = 0 \/ f_padwidth i' = w) /\ padbytes i' = g.
Proof.
  intros Hi Hw [c ->]. unfold close. destruct (N.eqb_spec (c * w) 0) as [->|_].
  - exists i. unfold padbytes. rewrite Hi. auto.
  - exists (mkF (f_off i) c w (f_sc i)). rewrite N.div_mul, set_last_padding_snoc by lia. auto.
Qed.

(* after every step the end of the last field is a multiple of its alignment *)
Definition aligned (st : lstate) : Prop := pow2_8 (l_prevalign st) /\ (l_prevalign st | l_next st).

Lemma field_step_aligned st g : good g -> aligned (field_step st (tsize g) (talign g) (tsc g)).
Proof.
  intros Hg. split; [apply Hg|]. cbn [field_step l_prevalign l_next]. rewrite pad_is_round_up by now apply good_pos.
  apply N.divide_add_r; [apply round_up_divide|now apply good_divide].
Qed.

Lemma loop_aligned fs : Forall good fs -> forall st, aligned st -> aligned (loop fs st).
Proof. induction 1; intros st Hst; [exact Hst|]. rewrite loop_cons. auto using field_step_aligned. Qed.

(* the loop from a state whose recorded fields are [pre] followed by the field [i], of type [f], with nothing behind
   it yet; [g] is the gap that will be closed behind the last field once the loop is over (the struct's tail padding,
   or the padding in front of the next field: both are [close]), so the induction needs no separate end case *)
Lemma loop_pads fs : Forall good fs -> forall st pre i f g,
  l_fields st = pre ++ [i] -> f_padcount i = 0 -> f_off i + tsize f = l_next st ->
  l_prevalign st = talign f -> aligned st ->
  let st' := loop fs st in
  (l_prevalign st' | g) ->
  exists i' infos, close (l_fields st') g (l_prevalign st') = pre ++ i' :: infos /\ f_off i' = f_off i /\
                   pads_ok (f :: fs) (i' :: infos) (l_next st' + g).
Proof.
  induction 1 as [|h fs Hh Hg IH]; intros st pre i f g Hl Hi Ho Hp [Hpw Hd]; cbn zeta.
  - cbn [loop fold_left]. intros Hdg.
    destruct (close_snoc pre i g (l_prevalign st) Hi (pow2_8_gt_0 _ Hpw) Hdg) as (i' & E & Eo & Ew & Eb).
    exists i', []. cbn [pads_ok]. rewrite Hl, E, <- Hp. repeat split; try assumption. lia.
  - rewrite loop_cons. pose proof (field_step_fields st (tsize h) (talign h) (tsc h)) as Hf. cbn zeta in Hf.
    set (padding := (talign h - l_next st mod talign h) mod talign h) in *. set (st1 := field_step _ _ _ _) in *. intros Hdg.
    assert (Hdp : (l_prevalign st | padding)).
    { apply pad_divide; [now apply good_pos|apply pow2_8_chain; [exact Hpw|apply Hh]|exact Hd]. }
    destruct (close_snoc pre i padding (l_prevalign st) Hi (pow2_8_gt_0 _ Hpw) Hdp) as (i' & E & Eo & Ew & Eb).
    (* [i'] is [i] with its padding; behind it the step records the field of [h], and the induction goes on from that *)
    set (inew := mkF (l_next st + padding) 0 1 (tsc h)) in *.
    assert (Hl1 : l_fields st1 = (pre ++ [i']) ++ [inew]) by now rewrite Hf, Hl, E.
    (* the three eq_refl: inew carries no padding, ends where st1 goes on, and st1's previous alignment is h's; each
       by unfolding st1 *)
    destruct (IH st1 (pre ++ [i']) inew h g Hl1 eq_refl eq_refl eq_refl (field_step_aligned st h Hh) Hdg)
      as (j & infos & E' & Eo' & Hok).
    exists i', (j :: infos). cbn [pads_ok] in Hok |- *. rewrite E', <- app_assoc, <- Hp. repeat split; try tauto.
    unfold inew in Eo'. cbn [f_off] in Eo'. lia.
Qed.

Lemma struct_info_pads fs :
  Forall good fs -> fs <> [] -> let '(infos, size, _, _) := struct_info fs in pads_ok fs infos size.
Proof.
  intros Hg Hne. pose proof (spec_align_pow2 fs Hg Hne) as Hm. rewrite struct_info_loop by assumption.
  destruct Hg as [|f fs Hf Hg]; [congruence|].
  (* the first step leaves the one field [f] at offset 0; loop_pads takes over from there *)
  rewrite loop_cons. pose proof (field_step_aligned st0 f Hf) as Hst. rewrite field_step_st0 in * by now apply good_pos.
  set (st := mkL (talign f) _ _ _ _) in *. pose proof (loop_aligned fs Hg st Hst) as Hst'.
  set (tail := (_ - _) mod _).
  assert (Hdiv : (l_prevalign (loop fs st) | tail)).
  { apply pad_divide; [now apply pow2_8_gt_0|apply pow2_8_chain; [apply Hst'|exact Hm]|apply Hst']. }
  destruct (loop_pads fs Hg st [] (mkF 0 0 1 (tsc f)) f tail eq_refl eq_refl eq_refl eq_refl Hst Hdiv)
    as (i' & infos & -> & _ & Hok).
  exact Hok.
Qed.

(* the typed padding recorded for each field is exactly the gap to the next field (or to the end of the
   struct), in units of the field's own alignment — and the divisibility assertion of layout.rs never fires *)
Theorem padding_typed_exact fs :
  forallb wf fs = true -> fs <> [] ->
  let '(infos, size, _, _) := struct_info fs in pads_ok fs infos size.
Proof. intros Hw. apply struct_info_pads, wf_all_good, Hw. Qed.

Example layout_examples :
  let Pair := FStruct [FPrim 1; FPrim 4] in
  let Big := [FPrim 1; FPrim 2; FPrim 8; FOpt (FPrim 2); FStruct [Pair; FPrim 1]; FEnum; FPrim 8; FStruct [FPrim 2]] in
  map f_off (fst (fst (fst (struct_info Big)))) = [0; 2; 8; 16; 20; 32; 40; 48] /\
  snd (fst (fst (struct_info Big))) = 56 /\ forallb wf Big = true /\
  flat_js_top (FStruct Big) = flat_doc_top (FStruct Big) /\
  read_val (FStruct [FPrim 1; FOpt (FPrim 2); FPrim 4]) (write_val (FStruct [FPrim 1; FOpt (FPrim 2); FPrim 4]) (VStructV [VNum 7; VSome (VNum 513); VNum 70000]) (repeat 0 12%nat) 0) 0
    = VStructV [VNum 7; VSome (VNum 513); VNum 70000].
Proof. vm_compute. repeat split. Qed.
