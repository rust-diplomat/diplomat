(* C08 — values written by _writeToArrayBuffer are read back unchanged by _fromFFI, for every well-formed struct type,
   every nesting and every field order: fields occupy disjoint byte ranges inside the struct (a consequence of the
   repr(C) offsets), a write touches only its own range, and the value is read back from any memory that agrees with
   the written one on that range. *)
From Coq Require Import List Arith NArith Lia.
Import ListNotations.
From DV Require Import Base.Lists Layout.Model Layout.Proofs.
Local Open Scope N_scope.

Lemma le_bytes_length w : forall n, length (le_bytes w n) = w.
Proof. induction w as [|w IH]; intros n; cbn [le_bytes length]; [reflexivity|]. now rewrite IH. Qed.

Lemma of_le_le_bytes w : forall n, n < 256 ^ N.of_nat w -> of_le (le_bytes w n) = n.
Proof.
  induction w as [|w IH]; intros n Hn.
  - cbn in *. lia.
  - cbn [le_bytes of_le]. rewrite IH.
    + symmetry. rewrite N.add_comm. now apply N.div_mod.
    + rewrite Nat2N.inj_succ, N.pow_succ_r' in Hn. apply N.div_lt_upper_bound; lia.
Qed.

Lemma nth_error_read_at m off n k :
  nth_error (read_at m off n) k = if (k <? n)%nat then nth_error m (N.to_nat off + k) else None.
Proof. unfold read_at. now rewrite nth_error_firstn, nth_error_skipn. Qed.

Lemma write_at_length m off bs : (N.to_nat off + length bs <= length m)%nat -> length (write_at m off bs) = length m.
Proof. intros H. unfold write_at. rewrite !app_length, firstn_length, skipn_length. lia. Qed.

Lemma nth_error_write_at m off bs i : (N.to_nat off + length bs <= length m)%nat ->
  nth_error (write_at m off bs) i =
  if (i <? N.to_nat off)%nat then nth_error m i
  else if (i <? N.to_nat off + length bs)%nat then nth_error bs (i - N.to_nat off) else nth_error m i.
Proof.
  intros H. unfold write_at.
  destruct (Nat.ltb_spec i (N.to_nat off)) as [Hlt|Hge].
  - rewrite nth_error_app1, nth_error_firstn by (rewrite firstn_length; lia). now apply Nat.ltb_lt in Hlt as ->.
  - rewrite nth_error_app2; rewrite firstn_length, Nat.min_l by lia; [|exact Hge].
    destruct (Nat.ltb_spec i (N.to_nat off + length bs)) as [Hlt2|Hge2].
    + now rewrite nth_error_app1 by lia.
    + rewrite nth_error_app2, nth_error_skipn by lia. f_equal. lia.
Qed.

Lemma read_write_at m off bs m' : (N.to_nat off + length bs <= length m)%nat ->
  (forall i, (N.to_nat off <= i < N.to_nat off + length bs)%nat -> nth_error m' i = nth_error (write_at m off bs) i) ->
  read_at m' off (length bs) = bs.
Proof.
  intros H Hm'. apply nth_error_ext. intros k. rewrite nth_error_read_at.
  destruct (Nat.ltb_spec k (length bs)) as [Hlt|Hge]; [|symmetry; now apply nth_error_None].
  rewrite Hm', nth_error_write_at by lia.
  destruct (Nat.ltb_spec (N.to_nat off + k) (N.to_nat off)); [lia|].
  destruct (Nat.ltb_spec (N.to_nat off + k) (N.to_nat off + length bs)); [f_equal|]; lia.
Qed.

Inductive typed : fty -> val -> Prop :=
| ty_prim s n : n < 256 ^ s -> typed (FPrim s) (VNum n)
| ty_enum n : n < 256 ^ 4 -> typed FEnum (VNum n)
| ty_opaque n : n < 256 ^ 4 -> typed FOpaque (VNum n)
| ty_slice p l : p < 256 ^ 4 -> l < 256 ^ 4 -> typed FSlice (VStructV [VNum p; VNum l])
| ty_struct fs vs : Forall2 typed fs vs -> typed (FStruct fs) (VStructV vs)
| ty_none p : typed (FOpt p) VNone
| ty_some p v : typed p v -> typed (FOpt p) (VSome v).

(* the anonymous loops of write_val / read_val, named *)
Fixpoint write_fields (base : N) (fs : list fty) (offs : list N) (vs : list val) (m : list N) : list N :=
  match fs, offs, vs with
  | f :: fs', o :: offs', v' :: vs' => write_fields base fs' offs' vs' (write_val f v' m (base + o))
  | _, _, _ => m
  end.
Fixpoint read_fields (base : N) (fs : list fty) (offs : list N) (m : list N) : list val :=
  match fs, offs with
  | f :: fs', o :: offs' => read_val f m (base + o) :: read_fields base fs' offs' m
  | _, _ => []
  end.

Lemma write_val_struct fs vs m base :
  write_val (FStruct fs) (VStructV vs) m base = write_fields base fs (map f_off (fst (fst (fst (struct_info fs))))) vs m.
Proof.
  cbn [write_val]. generalize (map f_off (fst (fst (fst (struct_info fs))))). revert vs m.
  induction fs as [|f fs IH]; intros [|v vs] m [|o offs]; try reflexivity. apply IH.
Qed.

Lemma read_val_struct fs m base :
  read_val (FStruct fs) m base = VStructV (read_fields base fs (map f_off (fst (fst (fst (struct_info fs))))) m).
Proof.
  cbn [read_val]. f_equal. generalize (map f_off (fst (fst (fst (struct_info fs))))).
  induction fs as [|f fs IH]; intros [|o offs]; try reflexivity. cbn [read_fields]. f_equal. apply IH.
Qed.

Lemma spec_end_ge fs : Forall good fs -> forall e, e <= spec_end e fs.
Proof.
  induction 1 as [|f fs Hf _ IH]; intros e; cbn [spec_end]; [reflexivity|].
  pose proof (round_up_ge e (talign f) (good_pos f Hf)). specialize (IH (round_up e (talign f) + tsize f)). lia.
Qed.

Lemma struct_offsets fs : Forall good fs -> fs <> [] ->
  map f_off (fst (fst (fst (struct_info fs)))) = spec_offsets 0 fs /\ spec_end 0 fs <= tsize (FStruct fs).
Proof.
  intros Hg Hne. pose proof (struct_info_spec fs Hg Hne) as H. unfold tsize. rewrite tsa_struct.
  destruct (struct_info fs) as [[[infos size] align] sc]. destruct H as (H1 & -> & _). split; [exact H1|].
  apply round_up_ge, pow2_8_gt_0, spec_align_pow2; assumption.
Qed.

Definition outside (base sz : N) (i : nat) : Prop := (i < N.to_nat base \/ N.to_nat base + N.to_nat sz <= i)%nat.
Definition inside (base sz : N) (i : nat) : Prop := (N.to_nat base <= i < N.to_nat base + N.to_nat sz)%nat.

(* [m1] is [m] after a write of [sz] bytes at [base] from which [rd] reads back [a] *)
Definition stored {A} (base sz : N) (m m1 : list N) (rd : list N -> A) (a : A) : Prop :=
  length m1 = length m /\
  (forall i, outside base sz i -> nth_error m1 i = nth_error m i) /\
  (forall m', (forall i, inside base sz i -> nth_error m' i = nth_error m1 i) -> rd m' = a).

Definition stores (t : fty) : Prop := forall v m base, typed t v -> (N.to_nat base + N.to_nat (tsize t) <= length m)%nat ->
  stored base (tsize t) m (write_val t v m base) (fun m' => read_val t m' base) v.

Lemma stored_scalar w n m base : n < 256 ^ N.of_nat w -> (N.to_nat base + w <= length m)%nat ->
  stored base (N.of_nat w) m (write_at m base (le_bytes w n)) (fun m' => of_le (read_at m' base w)) n.
Proof.
  intros Hn Hm. pose proof (le_bytes_length w n) as Hl. split; [apply write_at_length; lia|]. unfold outside, inside. split.
  - intros i Hi. rewrite nth_error_write_at, Hl by lia.
    destruct (Nat.ltb_spec i (N.to_nat base)); [reflexivity|]. destruct (Nat.ltb_spec i (N.to_nat base + w)); [lia|reflexivity].
  - intros m' Hm'. rewrite <- Hl at 1. rewrite (read_write_at m); [now apply of_le_le_bytes|lia|]. intros i Hi. apply Hm'. lia.
Qed.

(* two writes next to each other inside [base, base + sz); the second may assume that the first kept the length, which
   is how its caller shows that it still fits *)
Lemma stored_seq {A B C} (f : A -> B -> C) base sz b1 s1 b2 s2 m m1 m2 (r1 : list N -> A) (r2 : list N -> B) a b :
  stored b1 s1 m m1 r1 a -> (length m1 = length m -> stored b2 s2 m1 m2 r2 b) ->
  base <= b1 -> b1 + s1 <= b2 -> b2 + s2 <= base + sz ->
  stored base sz m m2 (fun m' => f (r1 m') (r2 m')) (f a b).
Proof.
  unfold stored, outside, inside. intros (L1 & F1 & R1) H. destruct (H L1) as (L2 & F2 & R2). intros H1 H12 H2.
  split; [congruence|]. split.
  - intros i Hi. rewrite F2, F1 by lia. reflexivity.
  - intros m' Hm'. f_equal; [apply R1|apply R2]; intros i Hi; rewrite Hm' by lia; [apply F2; lia|reflexivity].
Qed.

(* a write seen as a write inside a larger range, with what is read back put to use *)
Lemma stored_weaken {A B} base sz b s m m1 (r : list N -> A) (r' : list N -> B) a a' :
  stored b s m m1 r a -> base <= b -> b + s <= base + sz -> (forall m', r m' = a -> r' m' = a') ->
  stored base sz m m1 r' a'.
Proof.
  unfold stored, outside, inside. intros (L & F & R) H1 H2 E. split; [exact L|]. split.
  - intros i Hi. apply F. lia.
  - intros m' Hm'. apply E, R. intros i Hi. apply Hm'. lia.
Qed.

Lemma stored_num w n m base : n < 256 ^ N.of_nat w -> (N.to_nat base + w <= length m)%nat ->
  stored base (N.of_nat w) m (write_at m base (le_bytes w n)) (fun m' => VNum (of_le (read_at m' base w))) (VNum n).
Proof. intros Hn Hm. eapply stored_weaken; [exact (stored_scalar w n m base Hn Hm)|lia|lia|]. now intros m' <-. Qed.

Lemma fields_stored base fs : Forall stores fs -> Forall good fs -> forall endp vs m,
  Forall2 typed fs vs -> (N.to_nat base + N.to_nat (spec_end endp fs) <= length m)%nat ->
  stored (base + endp) (spec_end endp fs - endp) m (write_fields base fs (spec_offsets endp fs) vs m)
         (read_fields base fs (spec_offsets endp fs)) vs.
Proof.
  induction 1 as [|f fs HWf _ IH]; intros Hg endp vs m Hty Hm; inversion Hty as [|? v ? vs' Hv Hvs]; subst.
  - now split.
  - inversion Hg as [|? ? Hgf Hgfs]; subst. cbn [spec_offsets write_fields spec_end] in *.
    pose proof (round_up_ge endp (talign f) (good_pos f Hgf)) as Hge. set (o := round_up endp (talign f)) in *.
    pose proof (spec_end_ge fs Hgfs (o + tsize f)) as Hend.
    (* the first field at its offset [o], the others behind it *)
    eapply stored_seq with (f := cons) (b1 := base + o) (s1 := tsize f) (b2 := base + (o + tsize f))
                           (s2 := spec_end (o + tsize f) fs - (o + tsize f)); [| |lia..].
    + apply HWf; [exact Hv|lia].
    + intros L. apply (IH Hgfs (o + tsize f)); [exact Hvs|lia].
Qed.

Theorem wf_stores t : wf t = true -> stores t.
Proof.
  induction t as [s| | | |fs IH|p IH] using fty_ind'; intros Hw v m base Hv Hm;
    inversion Hv as [? n Hn|n Hn|n Hn|a l Ha Hl|? vs Hvs| |? v' Hv']; subst.
  - (* primitive: [s] bytes *)
    pose proof (stored_num (N.to_nat s) n m base) as H. rewrite N2Nat.id in H. exact (H Hn Hm).
  - (* enum: four bytes *) exact (stored_num 4 n m base Hn Hm).
  - (* opaque: a pointer, four bytes *) exact (stored_num 4 n m base Hn Hm).
  - (* slice: pointer then length *)
    change (tsize FSlice) with 8 in *.
    eapply stored_seq with (f := fun p l => VStructV [VNum p; VNum l]) (b1 := base) (s1 := 4) (b2 := base + 4) (s2 := 4);
      [| |lia..].
    + apply (stored_scalar 4); [exact Ha|lia].
    + intros L. apply (stored_scalar 4); [exact Hl|lia].
  - (* struct: the fields at the repr(C) offsets, which end inside its size; the empty one writes nothing *)
    cbn [wf] in Hw. rewrite write_val_struct.
    assert (HA : Forall stores fs) by (rewrite Forall_forall in *; rewrite forallb_forall in Hw; auto).
    destruct fs as [|f fs']; [inversion Hvs; now split|].
    destruct (struct_offsets (f :: fs') (wf_all_good _ Hw)) as [Hoffs Hsz]; [discriminate|]. rewrite Hoffs.
    assert (Hfit : (N.to_nat base + N.to_nat (spec_end 0 (f :: fs')) <= length m)%nat) by lia.
    eapply stored_weaken; [exact (fields_stored base (f :: fs') HA (wf_all_good _ Hw) 0 vs m Hvs Hfit)|lia|lia|].
    intros m' <-. now rewrite read_val_struct, Hoffs.
  - (* absent option: only the flag byte behind the payload *)
    rewrite tsize_opt in *. cbn [wf] in Hw. apply andb_prop in Hw as [Hw _]. pose proof (good_pos p (wf_good p Hw)).
    eapply stored_weaken; [apply (stored_scalar 1 0 m (base + tsize p)); [reflexivity|lia]|lia|lia|].
    intros m' E. cbn [read_val]. now rewrite E.
  - (* present option: payload, then the flag *)
    rewrite tsize_opt in *. cbn [wf] in Hw. apply andb_prop in Hw as [Hw _]. pose proof (good_pos p (wf_good p Hw)).
    eapply stored_seq with (f := fun a k => if k =? 0 then VNone else VSome a) (b1 := base) (s1 := tsize p)
                           (b2 := base + tsize p) (s2 := 1) (a := v') (b := 1); [| |lia..].
    + apply IH; [exact Hw|exact Hv'|lia].
    + intros L. apply (stored_scalar 1 1); [reflexivity|lia].
Qed.

(* C08, second clause: what _writeToArrayBuffer stores, _fromFFI reads back *)
Theorem read_after_write t v m base :
  wf t = true -> typed t v -> (N.to_nat base + N.to_nat (tsize t) <= length m)%nat ->
  read_val t (write_val t v m base) base = v.
Proof. intros Hw Hv Hm. destruct (wf_stores t Hw v m base Hv Hm) as (_ & _ & Hread). apply Hread. reflexivity. Qed.

(* ... and a write never touches a byte outside [base, base + size): neighbouring fields and the allocator's bookkeeping are safe *)
Theorem write_in_bounds t v m base i :
  wf t = true -> typed t v -> (N.to_nat base + N.to_nat (tsize t) <= length m)%nat ->
  outside base (tsize t) i -> nth_error (write_val t v m base) i = nth_error m i.
Proof. intros Hw Hv Hm. destruct (wf_stores t Hw v m base Hv Hm) as (_ & Hframe & _). exact (Hframe i). Qed.

Example read_after_write_applies :
  let t := FStruct [FPrim 1; FOpt (FStruct [FPrim 2; FPrim 8]); FSlice] in
  let v := VStructV [VNum 7; VSome (VStructV [VNum 513; VNum 1099511627776]); VStructV [VNum 4096; VNum 3]] in
  wf t = true /\ typed t v /\ read_val t (write_val t v (repeat 0 (N.to_nat (tsize t))) 0) 0 = v.
Proof.
  split; [reflexivity|]. split.
  - repeat constructor; cbn; lia.
  - vm_compute. reflexivity.
Qed.
