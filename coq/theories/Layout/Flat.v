(* C08 — the legacy argument list: what the generated JS does (every struct decides locally, told NoForce / PassThrough /
   Force by its parent) equals what docs/wasm_abi_quirks.md prescribes (one decision at the top: more than two scalars
   or a union anywhere means "padded direct", and then every typed padding is passed), for every struct type without
   zero-sized members and without the one unresolved corner (a two-scalar struct directly inside an aggregate that
   contains a union). *)
From Coq Require Import List NArith Lia.
Import ListNotations.
From DV Require Import Layout.Model Layout.Proofs.
Local Open Scope N_scope.

(* the anonymous loops of flat_doc / flat_js, named *)
Definition infos_of (fs : list fty) : list finfo := fst (fst (fst (struct_info fs))).
Definition pads (b : bool) (i : finfo) : list slot := if b then repeat SPad (N.to_nat (f_padcount i)) else [].

Fixpoint flatd_fields (padded : bool) (fs : list fty) (infos : list finfo) : list slot :=
  match fs, infos with
  | f :: fs', i :: infos' => flat_doc padded f ++ pads padded i ++ flatd_fields padded fs' infos'
  | _, _ => []
  end.
Fixpoint flatj_fields (outer : scalars) (force own : bool) (fs : list fty) (infos : list finfo) : list slot :=
  match fs, infos with
  | f :: r, i :: infos' =>
      flat_js (if is_struct f then child_force (tsc f) outer force else false) f ++ pads own i ++ flatj_fields outer force own r infos'
  | _, _ => []
  end.
Definition own_of (s : scalars) (force : bool) : bool := match s with Sc 2 => force | _ => true end.

Lemma flat_doc_struct padded fs : flat_doc padded (FStruct fs) = flatd_fields padded fs (infos_of fs).
Proof.
  cbn [flat_doc]. unfold infos_of. generalize (fst (fst (fst (struct_info fs)))).
  induction fs as [|f fs IH]; intros [|i infos]; try reflexivity. cbn [flatd_fields]. now rewrite <- IH.
Qed.

Lemma flat_js_struct force fs :
  flat_js force (FStruct fs) = flatj_fields (tsc (FStruct fs)) force (own_of (tsc (FStruct fs)) force) fs (infos_of fs).
Proof.
  cbn [flat_js]. unfold infos_of, own_of. generalize (fst (fst (fst (struct_info fs)))), (tsc (FStruct fs)).
  induction fs as [|f fs IH]; intros [|i infos] outer; try reflexivity. cbn [flatj_fields]. now rewrite <- IH.
Qed.

Definition pos_sc (s : scalars) : Prop := match s with Zst => False | Sc n => 1 <= n | Mem => True end.

Lemma loop_sc fs : forall st, l_sc (loop fs st) = fold_left sc_add (map tsc fs) (l_sc st).
Proof.
  induction fs as [|f fs IH]; intros st; [reflexivity|]. now rewrite loop_cons, IH.
Qed.

Lemma tsc_opt p : tsc (FOpt p) = Mem.
Proof. unfold tsc. cbn [tsa]. now destruct (tsa p) as [[sz al] sc]. Qed.

Lemma tsc_struct f fs : tsc (FStruct (f :: fs)) = fold_left sc_add (map tsc (f :: fs)) Zst.
Proof. change (tsc (FStruct (f :: fs))) with (l_sc (loop (f :: fs) st0)). now rewrite loop_sc. Qed.

Definition sc_le (a b : scalars) : Prop :=
  match a, b with
  | _, Mem => True
  | Zst, _ => True
  | Sc m, Sc n => m <= n
  | _, _ => False
  end.

Lemma sc_le_refl a : sc_le a a.
Proof. destruct a; cbn; auto; lia. Qed.
Lemma sc_le_trans a b c : sc_le a b -> sc_le b c -> sc_le a c.
Proof. destruct a, b, c; cbn; intros; try tauto; lia. Qed.
Lemma sc_le_add_l a b : sc_le a (sc_add a b).
Proof. destruct a, b; cbn; auto; lia. Qed.
Lemma sc_le_add_r a b : sc_le b (sc_add a b).
Proof. destruct a, b; cbn; auto; lia. Qed.

Lemma fold_ge_init l : forall a, sc_le a (fold_left sc_add l a).
Proof. induction l as [|x l IH]; intros a; cbn [fold_left]; [apply sc_le_refl|]. eapply sc_le_trans; [apply sc_le_add_l|apply IH]. Qed.

Lemma fold_ge_each l : forall a x, In x l -> sc_le x (fold_left sc_add l a).
Proof.
  induction l as [|y l IH]; intros a x Hin; [destruct Hin|]. destruct Hin as [<-|Hin]; cbn [fold_left]; [|now apply IH].
  eapply sc_le_trans; [apply sc_le_add_r|apply fold_ge_init].
Qed.

Lemma pos_le a b : pos_sc a -> sc_le a b -> pos_sc b.
Proof. destruct a, b; cbn; try tauto. lia. Qed.

(* exactly one scalar, all summands positive: a single summand *)
Lemma fold_one l : Forall pos_sc l -> fold_left sc_add l Zst = Sc 1 -> l = [Sc 1].
Proof.
  intros Hp H. destruct Hp as [|x l Hx Hl]; [discriminate|]. cbn [fold_left] in H. destruct Hl as [|y l Hy _].
  - destruct x; cbn in H; congruence.
  - exfalso. cbn [fold_left] in H. pose proof (fold_ge_init l (sc_add (sc_add Zst x) y)) as Hge. rewrite H in Hge.
    destruct x as [|m|], y as [|n|]; cbn in Hx, Hy, Hge; try tauto; lia.
Qed.

Definition is_zst (s : scalars) : bool := match s with Zst => true | _ => false end.
Definition is_mem (s : scalars) : bool := match s with Mem => true | _ => false end.
Definition is_two (s : scalars) : bool := match s with Sc 2 => true | _ => false end.
(* the struct types the theorem speaks of: no zero-sized member at any depth, and not the unresolved corner, a
   two-scalar struct directly inside an aggregate that contains a union (corner_differs below) *)
Fixpoint okf (t : fty) : bool :=
  match t with
  | FStruct fs =>
      forallb okf fs && negb (is_zst (tsc (FStruct fs))) &&
      (if is_mem (tsc (FStruct fs)) then forallb (fun f => negb (is_struct f && is_two (tsc f))) fs else true)
  | _ => true
  end.

Lemma flat_nonstruct t a b : is_struct t = false -> flat_js a t = flat_doc b t.
Proof. destruct t; cbn; intros H; try reflexivity. discriminate. Qed.

Lemma single_field_info f : good f -> infos_of [f] = [mkF 0 0 1 (tsc f)].
Proof.
  intros Hf. pose proof (good_pos f Hf) as Ha. assert (Hg : Forall good [f]) by now constructor.
  unfold infos_of. rewrite (struct_info_loop [f] Hg) by discriminate. rewrite loop_cons, field_step_st0 by exact Ha.
  cbn [loop fold_left l_next l_fields fst].
  (* the tail padding is 0: the size of [f] is a multiple of its alignment, which is the struct's *)
  rewrite spec_align_cons, N.max_0_r. replace (tsize f mod talign f) with 0 by (symmetry; apply Hf).
  now rewrite N.sub_0_r, N.mod_same by lia.
Qed.

Lemma cf_two_two a : child_force (Sc 2) (Sc 2) a = a.
Proof. reflexivity. Qed.
Lemma cf_two_mem a : child_force (Sc 2) Mem a = false.
Proof. reflexivity. Qed.
Lemma cf_mem o a : child_force Mem o a = false.
Proof. reflexivity. Qed.

(* child_force and own_of match on the literals 1 and 2; for a count that is neither, the numeral is taken apart
   just far enough (0, then the two lowest bits) for those matches to compute: 1 and 2 remain as cases of their own *)
Lemma cf_two_n n a : n <> 2 -> child_force (Sc 2) (Sc n) a = (3 <=? n).
Proof. intros H. destruct n as [|[[p|p|]|[p|p|]|]]; try reflexivity. congruence. Qed.
Lemma cf_not_two k o a : k <> 2 -> child_force (Sc k) o a = false.
Proof. intros H. destruct k as [|[[p|p|]|[p|p|]|]]; try reflexivity. congruence. Qed.
Lemma own_of_n n a : n <> 2 -> own_of (Sc n) a = true.
Proof. intros H. destruct n as [|[[p|p|]|[p|p|]|]]; try reflexivity. congruence. Qed.

(* what the parent tells a nested struct makes it decide as the parent does: PassThrough hands the decision down, Force
   and NoForce go to children that pad anyway; a one-scalar child has no padding to decide on, and a two-scalar
   child of a union-carrying aggregate is the excluded corner *)
Lemma child_own s S a :
  pos_sc s -> sc_le s S -> (S = Mem -> s <> Sc 2) -> s = Sc 1 \/ own_of s (child_force s S a) = own_of S a.
Proof.
  intros Hpos Hle Hcorner. destruct s as [|k|].
  - destruct Hpos.
  - destruct (N.eq_dec k 1) as [->|H1]; [now left|right]. destruct (N.eq_dec k 2) as [->|H2].
    + (* a two-scalar child does as told *)
      destruct S as [|n|]; [destruct Hle| |now destruct Hcorner]. cbn in Hle.
      destruct (N.eq_dec n 2) as [->|Hn]; [now rewrite cf_two_two|].
      rewrite cf_two_n, (own_of_n n) by exact Hn. apply N.leb_le. lia.
    + (* three or more scalars: it pads whatever it is told, and so does the parent, which has at least as many *)
      rewrite cf_not_two, own_of_n by assumption.
      destruct S as [|n|]; [destruct Hle| |reflexivity]. cbn in Hpos, Hle. symmetry. apply own_of_n. lia.
  - (* a union: the same, and the parent has the union too *)
    right. rewrite cf_mem. destruct S; now destruct Hle.
Qed.

Lemma fields_eq S a b fs : forall infos,
  (forall f, In f fs -> flat_js (if is_struct f then child_force (tsc f) S a else false) f = flat_doc b f) ->
  flatj_fields S a b fs infos = flatd_fields b fs infos.
Proof.
  induction fs as [|f fs IH]; intros [|i infos] H; try reflexivity.
  cbn [flatj_fields flatd_fields]. rewrite (H f), IH; auto using in_eq, in_cons.
Qed.

(* every struct decides for itself what the top-level rule decides once: a type of three or more scalars, or with a
   union, pads, a two-scalar type does as told, and a one-scalar type is a single value slot either way *)
Definition flat_agree (t : fty) : Prop :=
  pos_sc (tsc t) /\ (tsc t = Sc 1 -> forall b, flat_doc b t = [SVal]) /\
  forall a, flat_js a t = flat_doc (own_of (tsc t) a) t.

Theorem okf_flat_agree t : wf t = true -> okf t = true -> flat_agree t.
Proof.
  induction t as [s| | | |fs IH|p IH] using fty_ind'; intros Hw Hok.
  (* a primitive, an enum, a pointer: one scalar, one value slot whatever the flags *)
  1-3: (split; [exact (N.le_refl 1)|]; split; [intros _ b|intros a]; reflexivity).
  - (* a slice: two scalars, two slots *) split; [cbn; lia|]. split; [discriminate|reflexivity].
  - (* struct *)
    cbn [okf wf] in Hok, Hw. apply andb_prop in Hok as [Hok Hcorner]. apply andb_prop in Hok as [Hokf Hnz].
    destruct fs as [|f0 fs0]; [discriminate|]. set (fs := f0 :: fs0) in *.
    assert (HA : forall f, In f fs -> flat_agree f).
    { rewrite Forall_forall in IH. rewrite forallb_forall in Hw, Hokf. auto. }
    assert (Hsum : tsc (FStruct fs) = fold_left sc_add (map tsc fs) Zst) by apply tsc_struct.
    assert (Hle : forall f, In f fs -> sc_le (tsc f) (tsc (FStruct fs))).
    { intros f Hf. rewrite Hsum. now apply fold_ge_each, in_map. }
    repeat split.
    + (* it has a scalar: its first field has *)
      apply (pos_le (tsc f0)); [apply HA|apply Hle]; apply in_eq.
    + (* one scalar: a single field, without padding *)
      intros H1 b. rewrite Hsum in H1. apply fold_one in H1; [|apply Forall_map, Forall_forall; intros f Hf; now apply HA].
      unfold fs in *. destruct fs0; [|discriminate]. injection H1 as H1.
      rewrite flat_doc_struct, single_field_info by (apply wf_good; cbn in Hw; now destruct (wf f0)).
      cbn [flatd_fields]. rewrite (proj1 (proj2 (HA f0 (in_eq _ _)))) by exact H1. now destruct b.
    + (* field by field: a nested struct, told what child_force says, decides as this one does *)
      intros a. rewrite flat_js_struct, flat_doc_struct. apply fields_eq. intros f Hf.
      destruct (is_struct f) eqn:Hst; [|now apply flat_nonstruct]. destruct (HA f Hf) as (Hpos & Hone & ->).
      assert (Hcf : tsc (FStruct fs) = Mem -> tsc f <> Sc 2).
      { intros HM E2. rewrite HM in Hcorner. cbn [is_mem] in Hcorner. rewrite forallb_forall in Hcorner.
        specialize (Hcorner f Hf). rewrite Hst, E2 in Hcorner. discriminate. }
      destruct (child_own (tsc f) (tsc (FStruct fs)) a Hpos (Hle f Hf) Hcf) as [E|E].
      * now rewrite !Hone.
      * now rewrite E.
  - (* option: a union, the same slots under either flag *)
    unfold flat_agree. rewrite tsc_opt. now split.
Qed.

(* C08, fourth clause: the argument list the generated JS builds is the one the wasm C ABI rule prescribes *)
Theorem flat_js_is_documented t : wf t = true -> okf t = true -> flat_js_top t = flat_doc_top t.
Proof.
  intros Hw Hok. destruct (okf_flat_agree t Hw Hok) as (Hpos & Hone & H). unfold flat_js_top, flat_doc_top. rewrite H.
  destruct (tsc t) as [|n|]; [destruct Hpos| |reflexivity].
  destruct (N.eq_dec n 1) as [->|H1]; [now rewrite !Hone|]. destruct (N.eq_dec n 2) as [->|H2]; [reflexivity|].
  rewrite own_of_n by exact H2. cbn in Hpos. f_equal. symmetry. apply N.ltb_lt. lia.
Qed.

Example flat_applies :
  let t := FStruct [FPrim 1; FStruct [FPrim 2; FPrim 8]; FSlice] in
  wf t = true /\ okf t = true /\ flat_js_top t = [SVal; SPad; SPad; SPad; SPad; SPad; SPad; SPad; SVal; SPad; SPad; SPad; SVal; SVal; SVal].
Proof. repeat split; vm_compute; reflexivity. Qed.

(* the excluded corner is real: a two-scalar struct with internal padding directly inside a union-carrying aggregate *)
Example corner_differs :
  let t := FStruct [FStruct [FPrim 1; FPrim 4]; FOpt (FPrim 1)] in
  wf t = true /\ okf t = false /\ flat_js_top t <> flat_doc_top t.
Proof. repeat split; try (vm_compute; reflexivity). vm_compute. discriminate. Qed.
