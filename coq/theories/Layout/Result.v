(* C08 — the receive buffer of a fallible / optional struct return.  Definitions and proofs.

   Modelled code:
     runtime/src/result.rs        #[repr(C)] DiplomatResult<T, E> { value: union { ok: T, err: E }, is_ok: bool }
     tool/src/js/converter.rs     gen_c_to_js_for_return_type, arm Fallible / Nullable: `new DiplomatReceiveBuf(wasm, size, align, true)`
     tool/templates/js/runtime.mjs DiplomatReceiveBuf.resultFlag: the byte at offset size - 1
   A payload is given by its (size, alignment); unit is (0, 1); Option<T> is DiplomatResult<T, ()>. *)
From Coq Require Import List NArith Lia.
Import ListNotations.
Local Open Scope N_scope.
From DV Require Import Layout.Model Layout.Proofs.

Definition sa := (N * N)%type.
Definition unit_sa : sa := (0, 1).

(* repr(C): a union is as large as its largest member rounded up to its alignment, the flag follows it *)
Definition res_align (t e : sa) : N := N.max (snd t) (snd e).
Definition res_union (t e : sa) : N := round_up (N.max (fst t) (fst e)) (res_align t e).
Definition res_flag_off (t e : sa) : N := res_union t e.
Definition res_size (t e : sa) : N := round_up (res_union t e + 1) (res_align t e).

(* the generated JS: buffer (size, align); the flag is read at size - 1 *)
Definition js_recv (t e : sa) : N * N := (res_union t e + 1, res_align t e).
Definition js_flag_off (r : N * N) : N := fst r - 1.
(* ... as it stood before the repair: the largest payload size + 1, aligned like the success type *)
Definition js_recv_unrepaired (t e : sa) : N * N := (N.max (fst t) (fst e) + 1, snd t).

Definition sa_good (t : sa) : Prop := pow2_8 (snd t) /\ fst t mod snd t = 0.

Lemma pow2_8_pos a : pow2_8 a -> 0 < a.
Proof. apply pow2_8_gt_0. Qed.

Lemma res_align_pow2 t e : sa_good t -> sa_good e -> pow2_8 (res_align t e).
Proof. intros [A _] [B _]. now apply (N.max_case _ _ pow2_8). Qed.

(* the flag lies behind both payloads, at a multiple of the alignment, inside the buffer JS allocates, and JS reads it
   where repr(C) puts it *)
Theorem js_recv_is_reprC t e : sa_good t -> sa_good e ->
  fst t <= res_flag_off t e /\ fst e <= res_flag_off t e /\
  res_flag_off t e mod res_align t e = 0 /\
  js_flag_off (js_recv t e) = res_flag_off t e /\
  res_flag_off t e < fst (js_recv t e) /\ fst (js_recv t e) <= res_size t e /\
  snd (js_recv t e) = res_align t e.
Proof.
  intros Gt Ge. pose proof (pow2_8_pos _ (res_align_pow2 t e Gt Ge)) as P.
  unfold res_flag_off, res_size, js_recv, js_flag_off. cbn [fst snd].
  pose proof (round_up_ge (N.max (fst t) (fst e)) (res_align t e) P). fold (res_union t e) in *.
  pose proof (round_up_ge (res_union t e + 1) (res_align t e) P).
  repeat split; try lia. apply round_up_mod, P.
Qed.

(* the unrepaired buffer is the repaired one exactly when the largest payload already ends on the common alignment and
   the error type is not more strictly aligned than the success type: the repair changes nothing else *)
Theorem repair_is_conservative t e :
  0 < res_align t e -> N.max (fst t) (fst e) mod res_align t e = 0 -> snd e <= snd t ->
  js_recv_unrepaired t e = js_recv t e.
Proof.
  intros P M A. unfold js_recv_unrepaired, js_recv, res_union. rewrite round_up_id by auto.
  f_equal. unfold res_align. lia.
Qed.

(* ... and it was needed: Result<{u8;5}, {u32}> — the union is 8 bytes, the flag sits at offset 8; the unrepaired
   buffer was 6 bytes aligned to 1 and read the flag at offset 5 *)
Theorem unrepaired_refuted : exists t e, sa_good t /\ sa_good e /\
  js_flag_off (js_recv_unrepaired t e) <> res_flag_off t e /\
  fst (js_recv_unrepaired t e) <= res_flag_off t e /\ snd (js_recv_unrepaired t e) <> res_align t e.
Proof.
  exists (5, 1), (4, 4). unfold sa_good, pow2_8. cbn [fst snd]. split; [|split].
  - (* (5, 1) is good *) split; [left|]; reflexivity.
  - (* (4, 4) is good *) split; [right; right; left|]; reflexivity.
  - (* the flag is read at 5, not 8; the 6 bytes end before offset 8; alignment 1, not 4 *)
    repeat split; vm_compute; discriminate.
Qed.

(* correspondence goals: the buffer a generated method allocated for Result<t, e> / Option<t> *)
Definition sa_of (t : fty) : sa := (tsize t, talign t).
Definition agree_recv (t e : sa) (size align : N) : bool :=
  (fst (js_recv t e) =? size) && (snd (js_recv t e) =? align).

(* writeOptionToArrayBuffer before its repair: nothing at all was written for an absent value, so is_ok kept what the (not zeroed) buffer held before;
   Model.write_val is the repaired function (it stores 0), and C08_read_after_write holds for it whatever the memory
   contained *)
Definition write_none_unrepaired (m : list N) : list N := m.
Theorem none_unrepaired_refuted :
  exists m, length m = 2%nat /\ read_val (FOpt (FPrim 1)) (write_none_unrepaired m) 0 <> VNone /\
            read_val (FOpt (FPrim 1)) (write_val (FOpt (FPrim 1)) VNone m 0) 0 = VNone.
Proof. exists [170; 170]. repeat split; vm_compute; congruence. Qed.
