From Coq Require Import List NArith.
Import ListNotations.
From DV Require Import Slices.Model.

Lemma view_roundtrip s : s_ptr s <> PNull -> from_view (to_view s) = s.
Proof. now destruct s as [[] l]. Qed.

Lemma view_roundtrip_contents {A} (mem : N -> A) s :
  s_ptr s <> PNull -> contents mem (from_view (to_view s)) = contents mem s /\
  to_view (from_view (to_view s)) = to_view s.
Proof. intros H. now rewrite view_roundtrip. Qed.

Lemma null_zero_is_empty {A} (mem : N -> A) n :
  from_view (mkV PNull n) = mkS PDangling 0 /\ contents mem (from_view (mkV PNull n)) = [] /\
  valid_ref (from_view (mkV PNull n)).
Proof. now repeat split. Qed.

Lemma from_view_valid v :
  (v_ptr v = PDangling -> v_len v = 0%N) -> valid_ref (from_view v).
Proof. now destruct v as [[] l]. Qed.

Lemma owned_roundtrip b : s_ptr b <> PNull ->
  owned_from_view (owned_to_view b) = b /\ owned_drop (owned_to_view b) = Some (s_ptr b, s_len b).
Proof. now destruct b as [[] l]. Qed.

Lemma owned_null_empty {A} (mem : N -> A) :
  owned_from_view (mkV PNull 0) = mkS PDangling 0 /\ owned_drop (mkV PNull 0) = None /\
  contents mem (owned_from_view (mkV PNull 0)) = [].
Proof. now repeat split. Qed.

Lemma contents_length {A} (mem : N -> A) off n : length (contents mem (mkS (PAt off) n)) = N.to_nat n.
Proof. unfold contents; cbn. now rewrite map_length, seq_length. Qed.

Example view_example :
  contents (fun i => (i * 10)%N) (from_view (to_view (mkS (PAt 2) 3))) = [20; 30; 40]%N.
Proof. reflexivity. Qed.
