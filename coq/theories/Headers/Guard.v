(* C09 — include guards of the generated C++ headers (tool/src/cpp/header.rs, impl Display for Header):
   path.replace(".d.hpp", "_D_HPP").replace(".hpp", "_HPP").replace("\\", "_").replace("/", "_").
   A header path is a non-empty list of components (namespace directories, then the type's file stem); the guard joins them
   with '_' and appends one of two suffixes.  Characters are abstract: [sep] is the underscore. *)
From Coq Require Import List Arith.
Import ListNotations.

Section Guard.
Variable A : Type.
Variable sep : A.

Definition comp := list A.
Fixpoint join1 (c : comp) (r : list comp) : list A :=
  match r with
  | [] => c
  | d :: r' => c ++ sep :: join1 d r'
  end.
(* the guard of a decl / impl header: the joined path and which of the two suffixes follows *)
Definition guard (c : comp) (r : list comp) (decl : bool) : list A * bool := (join1 c r, decl).

Definition clean (c : comp) : Prop := ~ In sep c.

Lemma app_sep_inj (a b : comp) (x y : list A) : clean a -> clean b -> a ++ sep :: x = b ++ sep :: y -> a = b /\ x = y.
Proof.
  unfold clean. revert b. induction a as [|h a IH]; intros [|k b] Ca Cb H; cbn in *; inversion H; subst.
  - (* both empty *) auto.
  - (* only a empty: b would begin with the separator *) destruct Cb; auto.
  - (* only b empty: likewise *) destruct Ca; auto.
  - (* the same first character: the rest by induction *) destruct (IH b) as [-> ->]; auto.
Qed.

Lemma clean_no_sep (a b : comp) (y : list A) : clean a -> a <> b ++ sep :: y.
Proof. intros Ca ->. apply Ca, in_elt. Qed.

(* without underscores in namespace and type names, different header paths join to different names ... *)
Lemma join1_inj : forall r c d s,
  clean c -> clean d -> Forall clean r -> Forall clean s -> join1 c r = join1 d s -> c = d /\ r = s.
Proof.
  induction r as [|e r IH]; intros c d [|f s] Cc Cd Fr Fs H; cbn in H.
  - (* both paths end with this component *) now subst.
  - (* only the first ends: its last component would contain a separator *) destruct (clean_no_sep c d _ Cc H).
  - (* only the second ends *) destruct (clean_no_sep d c _ Cd (eq_sym H)).
  - (* both go on: the same component up to the separator, the rest by induction *)
    inversion Fr as [|? ? Ce Fr']; inversion Fs as [|? ? Cf Fs']; subst.
    destruct (app_sep_inj c d _ _ Cc Cd H) as [-> E]. now destruct (IH e f s Ce Cf Fr' Fs' E) as [-> ->].
Qed.

(* ... and so get different guards *)
Theorem guard_injective_on_clean_names : forall r c d s decl decl',
  clean c -> clean d -> Forall clean r -> Forall clean s ->
  guard c r decl = guard d s decl' -> c = d /\ r = s /\ decl = decl'.
Proof.
  intros r c d s decl decl' Cc Cd Fr Fs [= H ->]. now destruct (join1_inj r c d s Cc Cd Fr Fs H) as [-> ->].
Qed.
End Guard.

(* with underscores it is not: namespace geo + type Point, and the root type geo_Point (0 stands for '_') *)
Example guard_injective_refuted :
  guard nat 0 [7; 5; 15] [[16; 15; 9; 14; 20]] true = guard nat 0 [7; 5; 15; 0; 16; 15; 9; 14; 20] [] true /\
  ([7; 5; 15], [[16; 15; 9; 14; 20]]) <> ([7; 5; 15; 0; 16; 15; 9; 14; 20], @nil (list nat)).
Proof. split; [reflexivity|discriminate]. Qed.

(* correspondence: the `#ifndef` line of a generated header; characters are their code points, '_' = 95.
   [observed] is the guard without its _D_HPP / _HPP suffix *)
Fixpoint nat_list_eqb (a b : list nat) : bool :=
  match a, b with
  | [], [] => true
  | x :: a', y :: b' => Nat.eqb x y && nat_list_eqb a' b'
  | _, _ => false
  end.
Definition agree_guard (c : list nat) (r : list (list nat)) (decl : bool) (observed : list nat) (observed_decl : bool) : bool :=
  nat_list_eqb (fst (guard nat 95 c r decl)) observed && Bool.eqb (snd (guard nat 95 c r decl)) observed_decl.
