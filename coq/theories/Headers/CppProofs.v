(* C09 — the C++ headers are complete-before-use (Headers/Cpp.v). *)
From Coq Require Import List Arith Bool Lia.
Import ListNotations.
From DV Require Import Base.Lists Headers.Model Headers.Proofs Headers.Cpp.

(* both guard sets only contain types whose definition has been seen *)
Definition HInv (st : hstate) (declared : list nat) : Prop :=
  (forall s, In s (fst st) -> In s declared) /\ (forall s, In s (snd st) -> In s declared).

Definition hstep_ok (e : env) (fd f : nat) (x : nat) : Prop :=
  forall st declared, HInv st declared ->
    let '(st', evs, ok) := expand_hpp e fd f x st in
    ok = true -> ok_from declared evs = true /\ In x (after declared evs) /\ HInv st' (after declared evs).

Lemma hfold_ok e fd f xs st declared :
  (forall x, In x xs -> hstep_ok e fd f x) -> HInv st declared ->
  let '(st', evs, ok) :=
    fold_left (fun '(s, acc, ok) x => let '(s', ev', ok') := expand_hpp e fd f x s in (s', acc ++ ev', ok && ok')) xs (st, [], true) in
  ok = true ->
  ok_from declared evs = true /\ (forall x, In x xs -> In x (after declared evs)) /\ HInv st' (after declared evs).
Proof.
  intros Hstep Hinv. induction xs as [|x xs IH] using rev_ind; [now cbn|].
  rewrite fold_left_app. cbn [fold_left]. destruct (fold_left _ xs (st, [], true)) as [[s1 a1] o1].
  pose proof (Hstep x (in_elt x xs []) s1 (after declared a1)) as Hs.
  (* the flag is a conjunction: true at the end only if true so far and for this include *)
  destruct (expand_hpp e fd f x s1) as [[s' ev'] ok']. intros [-> ->]%andb_true_iff.
  destruct IH as (I1 & I2 & I3); [intros; apply Hstep, in_or_app; auto|reflexivity|].
  destruct (Hs I3 eq_refl) as (Hok' & Hin & Hinv').
  rewrite ok_from_app, after_app, I1. split; [exact Hok'|]. split; [|exact Hinv'].
  intros y [Hy|[<-|[]]]%in_app_or; auto using after_incl.
Qed.

Lemma expand_hpp_ok e fd : (forall x, depth_le e fd x = true) -> forall f t, hstep_ok e (S fd) f t.
Proof.
  intros Hd. induction f as [|f IH]; intros t st declared Hinv; cbn [expand_hpp];
    destruct (mem t (snd st)) eqn:Hm; try discriminate. (* no fuel and the guard undefined: the flag is false *)
  (* the guard is defined, with fuel or without: nothing is emitted, and t is declared *)
  1, 2: intros _; apply mem_in in Hm; split; [reflexivity|split; [apply (proj2 Hinv), Hm|exact Hinv]].
  (* the guard is undefined and there is fuel.  The decl header first: Proofs.expand_d_ok, no decl header is being
     expanded at this point (A = []) *)
  pose proof (expand_d_ok e fd t [] (Hd t) (fst st) declared) as Hdk.
  destruct (expand_d e (S fd) t (fst st)) as [sd1 ev1].
  destruct Hdk as (D1 & D2 & D3); [intros s Hs; left; apply (proj1 Hinv), Hs|intros a []|].
  pose proof (hfold_ok e (S fd) f (crefs e t) (sd1, t :: snd st) (after declared ev1)) as Hfold.
  destruct (fold_left _ (crefs e t) _) as [[s2 ev2] ok2]. intros Hok2.
  destruct Hfold as (F1 & F2 & F3); [exact (fun x _ => IH x)| |exact Hok2|].
  - (* the invariant after the decl header, with t's own guard defined: t has just been declared *)
    split; cbn [fst snd]; [intros s Hs; now destruct (D3 s Hs)|].
    intros s [<-|Hs]; [exact D2|]. apply after_incl, (proj2 Hinv), Hs.
  - (* the inline bodies: t and every other type mentioned are complete by now *)
    rewrite !ok_from_app, !after_app, after_uses, D1, F1, uses_after_decls_ok.
    + split; [reflexivity|split; [apply after_incl, D2|exact F3]].
    + intros x [<-|Hx]; [apply after_incl, D2|apply F2, Hx].
Qed.

(* in the include-once expansion of any T.hpp, every class is defined before an inline method body (or a
   by-value field) needs it complete, for every set of types whose by-value containment is acyclic, whatever the
   pointer / signature references look like, cycles between impl headers included *)
Theorem cpp_complete_before_body e fd fuel t :
  (forall x, depth_le e fd x = true) ->
  snd (hpp_events e (S fd) fuel t) = true -> declared_before_use (fst (hpp_events e (S fd) fuel t)) = true.
Proof.
  intros Hd. unfold hpp_events, declared_before_use.
  pose proof (expand_hpp_ok e fd Hd fuel t ([], []) []) as H.
  destruct (expand_hpp e (S fd) fuel t ([], [])) as [[st evs] ok]. intros Hok. apply H; [split; intros s []|exact Hok].
Qed.

(* the decl header forward-declares every name its method declarations mention *)
Theorem cpp_decl_names_declared e t : decl_names_ok e t = true.
Proof.
  apply forallb_forall. intros x Hx. destruct (x =? t) eqn:E; [reflexivity|].
  apply mem_in, filter_In. now rewrite E.
Qed.

Example cpp_theorem_applies :
  (* two opaques whose methods mention each other, a struct holding a struct by value and pointing to both *)
  let e := [mkT [] [1; 2]; mkT [] [0]; mkT [3] [0; 1]; mkT [] []] in
  (forall x, x < 4 -> depth_le e 1 x = true) /\
  hpp_events e 2 5 0 = ([Declare 0; Declare 1; Use 1; Use 0; Declare 3; Use 3; Declare 2; Use 3; Use 2; Use 3; Use 0; Use 1; Use 0; Use 1; Use 2], true).
Proof. split; [intros x Hx; do 4 (destruct x as [|x]; [reflexivity|]); lia|vm_compute; reflexivity]. Qed.

(* [n] bounds the type numbers that are mentioned.  It need not be [length e]: a number beyond the table reads as a type
   without fields or references ([Model.get]'s default). *)
Definition wf_env (e : env) (n : nat) : Prop := forall t x, In x (crefs e t) -> x < n.

(* every include adds its guard, so the unvisited types bound the depth of the expansion *)
Lemma expand_hpp_fuel e fd n : wf_env e n -> forall f t st,
  let '(st', _, ok) := expand_hpp e fd f t st in
  incl (snd st) (snd st') /\ (t < n -> missing n (snd st) < f -> ok = true).
Proof.
  intros W. induction f as [|f IH]; intros t st; cbn [expand_hpp]; destruct (mem t (snd st)) eqn:E;
    (* a defined guard, or no fuel: the state is returned as it is, and the flag is false only for want of fuel *)
    try (split; [apply incl_refl|auto; lia]).
  destruct (expand_d e fd t (fst st)) as [sd1 ev1]. destruct (fold_left _ (crefs e t) _) as [[st2 ev2] ok2] eqn:Ef.
  (* what the includes of the other mentioned types preserve: t's guard stays defined, and the flag stays true *)
  pose (P := fun a : hstate * list ev * bool =>
               let '(s0, _, o0) := a in incl (t :: snd st) (snd s0) /\ (t < n -> missing n (snd st) < S f -> o0 = true)).
  assert (G : P (st2, ev2, ok2)).
  { apply (fold_left_inv P _ _) in Ef; [exact Ef| |].
    - (* one more include, of y *)
      intros [[s0 a0] o0] y Hy [Hsub Ho]. specialize (IH y s0). destruct (expand_hpp e fd f y s0) as [[s1 e1] o1].
      destruct IH as [Hs1 Ho1]. split; [eapply incl_tran; eauto|]. intros Ht Hm.
      (* the flag so far is true by P; that of y's include by the induction hypothesis, which asks two things *)
      rewrite (Ho Ht Hm), Ho1; [reflexivity| |].
      + (* y is one of the types below n *) exact (W t y Hy).
      + (* the fuel is enough for y: with t's guard defined, fewer types are unvisited than before *)
        pose proof (missing_mono n _ _ Hsub). pose proof (missing_cons_lt n t (snd st) Ht E). lia.
    - (* before the first *) split; [apply incl_refl|reflexivity]. }
  destruct G as [Hsub Hok]. split; [intros s Hs; apply Hsub; now right|exact Hok].
Qed.

(* the same statement without the flag: number of types + 1 levels of includes are always enough *)
Theorem cpp_complete_before_body_total e fd n t :
  (forall x, depth_le e fd x = true) -> wf_env e n -> t < n ->
  declared_before_use (fst (hpp_events e (S fd) (S n) t)) = true.
Proof.
  intros Hd W Ht. apply cpp_complete_before_body; [exact Hd|]. unfold hpp_events.
  pose proof (expand_hpp_fuel e (S fd) n W (S n) t ([], [])) as H.
  destruct (expand_hpp e (S fd) (S n) t ([], [])) as [[st evs] ok]. apply H; [exact Ht|].
  pose proof (missing_le n []). cbn [snd]. lia.
Qed.
