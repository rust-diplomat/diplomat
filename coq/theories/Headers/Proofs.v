(* C09 - the C headers declare before they use (Headers/Model.v).
   Plan: the check composes over concatenated text ([ok_from_app], [uses_after_decls_ok]); by-value containment of
   bounded depth has no cycles ([acyclic]); [step_ok] says what one well-behaved include does to the guards and the
   declared types, [fold_ok] chains includes, [expand_d_node] gets a header from its includes and [expand_d_ok] follows
   by induction on the depth; [headers_declare_before_use] is the same chain once more for T.h. *)
From Coq Require Import List Arith Bool Lia Relations.
Import ListNotations.
From DV Require Import Base.Lists Base.Closure Headers.Model.

Fixpoint decls (evs : list ev) : list nat :=
  match evs with [] => [] | Declare t :: r => t :: decls r | Use _ :: r => decls r end.

Definition after (declared : list nat) (evs : list ev) : list nat := rev (decls evs) ++ declared.

(* the check composes over concatenation: the second part sees what the first declared *)
Lemma ok_from_app d a b : ok_from d (a ++ b) = ok_from d a && ok_from (after d a) b.
Proof.
  unfold after. revert d. induction a as [|[t|t] a IH]; intros d; cbn [app ok_from decls rev]; rewrite ?IH, <- ?app_assoc, ?andb_assoc; reflexivity.
Qed.

Lemma mem_in n l : mem n l = true <-> In n l.
Proof. apply existsb_eqb_In, Nat.eqb_eq. Qed.

(* once everything a prototype block mentions has been declared, the block is fine *)
Theorem uses_after_decls_ok d refs : (forall x, In x refs -> In x d) -> ok_from d (map Use refs) = true.
Proof.
  intros H. induction refs as [|x r IH]; cbn; [reflexivity|].
  rewrite (proj2 (mem_in x d)), IH; auto with datatypes.
Qed.

Example order_example :
  (* St1 { inner: St0, op: Box<Op> } ; Op has methods mentioning St1 and St0 *)
  let e := [mkT [] []; mkT [] [2; 0]; mkT [0; 1] []] in
  declared_before_use (expand_h e 5 1) = true /\ declared_before_use (expand_h e 5 2) = true /\
  expand_h e 5 1 = [Declare 0; Declare 1; Use 0; Use 1; Declare 2; Use 2; Use 0; Use 1].
Proof. vm_compute. repeat split. Qed.

Definition child (e : env) (a b : nat) : Prop := In b (fields (get e a)).
Definition reach (e : env) : nat -> nat -> Prop := clos_refl_trans_1n nat (child e).

Lemma depth_mono e d : forall t, depth_le e d t = true -> depth_le e (S d) t = true.
Proof.
  induction d as [|d IH]; intros t; cbn [depth_le]; [now destruct (fields (get e t))|].
  rewrite !forallb_forall. intros H x Hx. apply IH, H, Hx.
Qed.

Lemma depth_child e d a x : depth_le e (S d) a = true -> child e a x -> depth_le e d x = true.
Proof. unfold child. cbn [depth_le]. rewrite forallb_forall. auto. Qed.

Lemma depth_zero_leaf e a x : depth_le e 0 a = true -> child e a x -> False.
Proof. unfold child. cbn [depth_le]. now destruct (fields (get e a)). Qed.

Lemma depth_reach e d a b : depth_le e d a = true -> reach e a b -> depth_le e d b = true.
Proof.
  intros H R. revert H. apply (clos_rt1n_inv (child e) (fun x => depth_le e d x = true)); [|exact R].
  (* a child is no deeper than its parent *)
  intros x y Hx Hxy. destruct d as [|d]; [destruct (depth_zero_leaf e x y Hx Hxy)|]. apply depth_mono, (depth_child e d x y Hx Hxy).
Qed.

(* by-value containment of bounded depth has no cycles.  By descent: the child x of a has depth at most d, so if a can
   be reached from x, then a has depth at most d as well, one less than assumed; at depth 0 there are no children *)
Lemma acyclic e d : forall a x, depth_le e d a = true -> child e a x -> reach e x a -> False.
Proof.
  induction d as [|d IH]; intros a x H Hax R.
  - exact (depth_zero_leaf e a x H Hax).
  - exact (IH a x (depth_reach e d x a (depth_child e d a x H Hax) R) Hax R).
Qed.

(* guards already defined are either declared or belong to the headers being expanded right now (A) *)
Definition Inv (seen declared A : list nat) : Prop := forall s, In s seen -> In s declared \/ In s A.

Lemma decls_app a b : decls (a ++ b) = decls a ++ decls b.
Proof. induction a as [|[t|t] a IH]; cbn [app decls]; now rewrite ?IH. Qed.

Lemma after_app d a b : after d (a ++ b) = after (after d a) b.
Proof. unfold after. now rewrite decls_app, rev_app_distr, app_assoc. Qed.

Lemma after_incl d evs x : In x d -> In x (after d evs).
Proof. intros H. apply in_or_app. now right. Qed.

Lemma after_uses d refs : after d (map Use refs) = d.
Proof. unfold after. now induction refs. Qed.

(* one include: the specification of a well-behaved expansion step *)
Definition step_ok (e : env) (f : nat) (A : list nat) (x : nat) : Prop :=
  forall seen declared, Inv seen declared A -> (forall a, In a A -> ~ reach e x a) ->
    let '(seen', evs) := expand_d e f x seen in
    ok_from declared evs = true /\ In x (after declared evs) /\ Inv seen' (after declared evs) A.

Lemma fold_ok e f A xs seen declared :
  (forall x, In x xs -> step_ok e f A x) -> (forall x a, In x xs -> In a A -> ~ reach e x a) ->
  Inv seen declared A ->
  let '(seen', evs) := fold_left (fun '(s, acc) x => let '(s', ev') := expand_d e f x s in (s', acc ++ ev')) xs (seen, []) in
  ok_from declared evs = true /\ (forall x, In x xs -> In x (after declared evs)) /\ Inv seen' (after declared evs) A.
Proof.
  intros Hstep HA Hinv. induction xs as [|x xs IH] using rev_ind; [now cbn|].
  rewrite fold_left_app. cbn [fold_left].
  destruct (fold_left _ xs (seen, [])) as [s1 a1].
  destruct IH as (I1 & I2 & I3); [intros; apply Hstep, in_or_app; auto|intros y a Hy; apply HA, in_or_app; auto|].
  pose proof (Hstep x (in_elt x xs []) s1 _ I3 (fun a => HA x a (in_elt x xs []))) as Hs.
  destruct (expand_d e f x s1) as [s' ev']. destruct Hs as (Hok' & Hin & Hinv').
  rewrite ok_from_app, after_app, I1. repeat split; auto.
  intros y [Hy|[<-|[]]]%in_app_or; auto using after_incl.
Qed.

(* one header: it is fine if each of its includes is, with the header itself among those under expansion, and none of
   them leads back to it *)
Lemma expand_d_node e f A t :
  (forall x, child e t x -> step_ok e f (t :: A) x /\ ~ reach e x t) -> step_ok e (S f) A t.
Proof.
  intros Hc seen declared Hinv HA. cbn [expand_d]. destruct (mem t seen) eqn:Hm.
  - (* the guard is defined: nothing is emitted, and t is declared, since it is not under expansion (it reaches itself) *)
    apply mem_in in Hm. split; [reflexivity|]. split; [|exact Hinv].
    destruct (Hinv t Hm) as [H|H]; [exact H|]. destruct (HA t H). constructor.
  - pose proof (fold_ok e f (t :: A) (fields (get e t)) (t :: seen) declared) as Hfold.
    destruct (fold_left _ _ (t :: seen, [])) as [sf evf]. destruct Hfold as (F1 & F2 & F3).
    + (* each include is well-behaved *)
      intros x Hx. apply Hc, Hx.
    + (* and reaches neither t nor, through t, anything else under expansion *)
      intros x a Hx [<-|Ha] R; [apply (Hc x Hx), R|apply (HA a Ha); eapply Relation_Operators.rt1n_trans; eauto].
    + (* the invariant, with t's guard defined and t under expansion *)
      intros s [<-|Hs]; [right; now left|]. destruct (Hinv s Hs); [left|right; right]; auto.
    + (* t's own text: the uses of its fields, which the includes have declared, then its declaration; afterwards a
         guard belongs to a declared type, to t, which is declared now, or to a header still under expansion *)
      rewrite !ok_from_app, F1, uses_after_decls_ok, !after_app, after_uses by exact F2.
      repeat split; [now left|]. intros s Hs. destruct (F3 s Hs) as [H|[<-|H]]; [left; right|left; left|right]; auto.
Qed.

Lemma expand_d_ok e : forall f t A, depth_le e f t = true -> step_ok e (S f) A t.
Proof.
  induction f as [|f IH]; intros t A Hd; apply expand_d_node; intros x Hx.
  - (* at depth 0 there are no includes *) destruct (depth_zero_leaf e t x Hd Hx).
  - split; [apply IH, (depth_child e f t x Hd Hx)|exact (acyclic e (S f) t x Hd Hx)].
Qed.

(* with include-once guards, whatever the header of a type expands to declares every type before using it,
   for every set of types whose by-value containment is acyclic (depth bounded by the fuel), whatever refers to whatever
   by pointer or in method signatures.  The bound is needed only of the types whose decl headers T.h includes: what
   they contain by value is bounded with them *)
Theorem headers_declare_before_use_roots e f t :
  (forall x, In x (sig_refs (get e t) ++ [t]) -> depth_le e f x = true) -> declared_before_use (expand_h e (S f) t) = true.
Proof.
  intros Hd. unfold declared_before_use, expand_h.
  pose proof (fold_ok e (S f) [] (sig_refs (get e t) ++ [t]) [] []) as Hfold.
  destruct (fold_left _ _ ([], [])) as [sf evf]. destruct Hfold as (F1 & F2 & _).
  - intros x Hx. apply expand_d_ok, Hd, Hx.
  - (* nothing is under expansion *) intros x a _ [].
  - (* no guard is defined yet *) intros s [].
  - (* the prototypes: every type they mention, and t itself, has been declared *)
    rewrite !ok_from_app, F1, uses_after_decls_ok, after_uses by auto with datatypes. cbn.
    rewrite (proj2 (mem_in t _)); auto with datatypes.
Qed.

Theorem headers_declare_before_use e f t :
  (forall x, depth_le e f x = true) -> declared_before_use (expand_h e (S f) t) = true.
Proof. intros Hd. apply headers_declare_before_use_roots. intros x _. apply Hd. Qed.

Example headers_theorem_applies :
  let e := [mkT [] []; mkT [] [2; 0]; mkT [0; 1] [1]; mkT [2; 0] [3; 1]] in
  (forall x, x < 4 -> depth_le e 2 x = true) /\ declared_before_use (expand_h e 3 3) = true.
Proof. split; [intros x Hx; do 4 (destruct x as [|x]; [reflexivity|]); lia|vm_compute; reflexivity]. Qed.
