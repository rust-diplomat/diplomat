(* ZifyBool: the validator's tests are booleans over N ([<?], [<=?], [&&]), which [lia] reads only with it *)
From Coq Require Import List NArith Bool Lia ZifyBool Wf_nat.
Import ListNotations.
From DV Require Import Utf8.Model.
Local Open Scope N_scope.

Lemma div_mul_add b h x : x < b -> (h * b + x) / b = h.
Proof. intros H. symmetry. apply N.div_unique with x; [exact H|lia]. Qed.

Lemma mod_mul_add b h x : x < b -> (h * b + x) mod b = x.
Proof. intros H. symmetry. apply N.mod_unique with h; [exact H|lia]. Qed.

Lemma add_sub_l a b : a + b - a = b.
Proof. rewrite N.add_comm. apply N.add_sub. Qed.

Lemma le_offset lo b : lo <= b -> exists x, b = lo + x.
Proof. exists (b - lo). lia. Qed.

Lemma in_range_iff lo hi b : in_range lo hi b = true <-> lo <= b <= hi.
Proof. unfold in_range. lia. Qed.

Lemma in_range_not_below lo hi b n : in_range lo hi b = true -> n <= lo -> (b <? n) = false.
Proof. unfold in_range. lia. Qed.

Lemma in_range_disjoint lo hi b lo' hi' : in_range lo hi b = true -> hi' < lo -> in_range lo' hi' b = false.
Proof. unfold in_range. lia. Qed.

(* Table 3-7 as propositions *)
Lemma seq_ok_iff l : seq_ok l = true <->
  match l with
  | [b0] => b0 < 0x80
  | [b0; b1] => 0xC2 <= b0 <= 0xDF /\ 0x80 <= b1 <= 0xBF
  | [b0; b1; b2] =>
      0xE0 <= b0 <= 0xEF /\ 0x80 <= b1 <= 0xBF /\ (b0 = 0xE0 -> 0xA0 <= b1) /\ (b0 = 0xED -> b1 <= 0x9F) /\
      0x80 <= b2 <= 0xBF
  | [b0; b1; b2; b3] =>
      0xF0 <= b0 <= 0xF4 /\ 0x80 <= b1 <= 0xBF /\ (b0 = 0xF0 -> 0x90 <= b1) /\ (b0 = 0xF4 -> b1 <= 0x8F) /\
      0x80 <= b2 <= 0xBF /\ 0x80 <= b3 <= 0xBF
  | _ => False
  end.
Proof.
  destruct l as [|b0 [|b1 [|b2 [|b3 [|]]]]]; cbn [seq_ok]; [easy|..|easy]; unfold ok3, ok4, cont, in_range.
  - apply N.ltb_lt.
  - lia.
  - destruct (N.eqb_spec b0 0xE0) as [->|]; [lia|]. destruct (N.eqb_spec b0 0xED) as [->|]; lia.
  - destruct (N.eqb_spec b0 0xF0) as [->|]; [lia|]. destruct (N.eqb_spec b0 0xF4) as [->|]; lia.
Qed.

(* a well-formed sequence in front of r is consumed by the validator.  In each case seq_ok's conjunction is split into
   its tests, H0 for the lead byte and Hi for byte i: H0 refutes the validator's tests for the shorter forms, after
   which the validator asks exactly H0, H1, ... *)
Lemma valid_app_seq l r : seq_ok l = true -> utf8_valid (l ++ r) = utf8_valid r.
Proof.
  destruct l as [|b0 [|b1 [|b2 [|b3 [|]]]]]; cbn [seq_ok app utf8_valid]; try discriminate; intros H.
  - now rewrite H.
  - apply andb_true_iff in H as [H0 H1].
    rewrite (in_range_not_below _ _ _ 0x80 H0) by easy.
    now rewrite H0, H1.
  - apply andb_true_iff in H as [H H2]. apply andb_true_iff in H as [H0 H1].
    rewrite (in_range_not_below _ _ _ 0x80 H0), (in_range_disjoint _ _ _ 0xC2 0xDF H0) by easy.
    now rewrite H0, H1, H2.
  - apply andb_true_iff in H as [H H3]. apply andb_true_iff in H as [H H2]. apply andb_true_iff in H as [H0 H1].
    rewrite (in_range_not_below _ _ _ 0x80 H0), (in_range_disjoint _ _ _ 0xC2 0xDF H0),
      (in_range_disjoint _ _ _ 0xE0 0xEF H0) by easy.
    now rewrite H0, H1, H2, H3.
Qed.

Lemma valid_peel b0 r0 : utf8_valid (b0 :: r0) = true ->
  exists l r, b0 :: r0 = l ++ r /\ seq_ok l = true /\ utf8_valid r = true.
Proof.
  cbn [utf8_valid]. intros H.
  destruct (b0 <? 0x80) eqn:E0.
  { now exists [b0], r0. }
  destruct r0 as [|b1 r1]; [discriminate|].
  destruct (in_range 0xC2 0xDF b0) eqn:E1.
  { apply andb_true_iff in H as [H1 H]. exists [b0; b1], r1. cbn [seq_ok]. now rewrite E1. }
  destruct r1 as [|b2 r2]; [discriminate|].
  destruct (in_range 0xE0 0xEF b0) eqn:E2.
  { apply andb_true_iff in H as [H1 H]. exists [b0; b1; b2], r2. cbn [seq_ok]. now rewrite E2. }
  destruct r2 as [|b3 r3]; [discriminate|].
  apply andb_true_iff in H as [H1 H]. now exists [b0; b1; b2; b3], r3.
Qed.

(* accepted strings are concatenations of well-formed sequences: the induction principle that says so *)
Lemma valid_ind (P : list N -> Prop) :
  P [] -> (forall l r, seq_ok l = true -> utf8_valid r = true -> P r -> P (l ++ r)) ->
  forall bs, utf8_valid bs = true -> P bs.
Proof.
  intros Hnil Happ bs. remember (length bs) as n eqn:Hn. revert bs Hn.
  induction n as [n IH] using lt_wf_ind. intros [|b bs] -> Hv; [exact Hnil|].
  destruct (valid_peel _ _ Hv) as (l & r & E & Hl & Hr). rewrite E in *.
  apply Happ; [exact Hl|exact Hr|]. apply (IH (length r)); [|reflexivity|exact Hr].
  rewrite app_length. destruct l; [discriminate|cbn; lia].
Qed.

(* code points as base-64 digits: on c = ((h * 64 + x) * 64 + y) * 64 + z, division and remainder by powers of 64 read
   the digits off, and every arithmetic goal below is linear *)

Lemma div4096 c : c / 4096 = c / 64 / 64.
Proof. symmetry. now apply (N.div_div c 64 64). Qed.

Lemma div262144 c : c / 262144 = c / 64 / 64 / 64.
Proof. rewrite <- (div4096 c). symmetry. now apply (N.div_div c 4096 64). Qed.

Lemma encode1 c : c < 0x80 -> encode c = [c].
Proof. intros H. unfold encode. now replace (c <? 0x80) with true by lia. Qed.

Lemma encode2 h x : x < 64 -> 0x80 <= h * 64 + x < 0x800 -> encode (h * 64 + x) = [0xC0 + h; 0x80 + x].
Proof.
  intros Hx Hc. unfold encode.
  replace (_ <? 0x80) with false by lia. replace (_ <? 0x800) with true by lia.
  now rewrite div_mul_add, mod_mul_add.
Qed.

Lemma encode3 h x y : x < 64 -> y < 64 -> 0x800 <= (h * 64 + x) * 64 + y < 0x10000 ->
  encode ((h * 64 + x) * 64 + y) = [0xE0 + h; 0x80 + x; 0x80 + y].
Proof.
  intros Hx Hy Hc. unfold encode.
  replace (_ <? 0x80) with false by lia. replace (_ <? 0x800) with false by lia.
  replace (_ <? 0x10000) with true by lia.
  now rewrite div4096, !div_mul_add, !mod_mul_add.
Qed.

Lemma encode4 h x y z : x < 64 -> y < 64 -> z < 64 -> 0x10000 <= ((h * 64 + x) * 64 + y) * 64 + z ->
  encode (((h * 64 + x) * 64 + y) * 64 + z) = [0xF0 + h; 0x80 + x; 0x80 + y; 0x80 + z].
Proof.
  intros Hx Hy Hz Hc. unfold encode.
  replace (_ <? 0x80) with false by lia. replace (_ <? 0x800) with false by lia.
  replace (_ <? 0x10000) with false by lia.
  now rewrite div262144, div4096, !div_mul_add, !mod_mul_add.
Qed.

Lemma decode2 h x : decode_seq [0xC0 + h; 0x80 + x] = h * 64 + x.
Proof. cbn [decode_seq]. now rewrite !add_sub_l. Qed.

Lemma decode3 h x y : decode_seq [0xE0 + h; 0x80 + x; 0x80 + y] = (h * 64 + x) * 64 + y.
Proof. cbn [decode_seq]. rewrite !add_sub_l. ring. Qed.

Lemma decode4 h x y z :
  decode_seq [0xF0 + h; 0x80 + x; 0x80 + y; 0x80 + z] = ((h * 64 + x) * 64 + y) * 64 + z.
Proof. cbn [decode_seq]. rewrite !add_sub_l. ring. Qed.

Lemma seq_ok_decode l : seq_ok l = true -> scalar (decode_seq l) = true /\ encode (decode_seq l) = l.
Proof.
  intros H%seq_ok_iff. unfold scalar.
  destruct l as [|b0 [|b1 [|b2 [|b3 [|]]]]]; [easy|..|easy].
  - cbn [decode_seq]. rewrite encode1 by exact H. split; [lia|reflexivity].
  - destruct H as ((L0 & U0) & L1 & U1).
    (* the lead byte starts at 0xC2 (0xC0 and 0xC1 would be overlong), while its digit h counts from 0xC0 *)
    assert (L0' : 0xC0 <= b0) by lia.
    destruct (le_offset _ _ L0') as (h & ->), (le_offset _ _ L1) as (x & ->).
    rewrite decode2, encode2 by lia. split; [lia|reflexivity].
  - destruct H as ((L0 & U0) & (L1 & U1) & Ha & Hb & L2 & U2).
    destruct (le_offset _ _ L0) as (h & ->), (le_offset _ _ L1) as (x & ->), (le_offset _ _ L2) as (y & ->).
    rewrite decode3, encode3 by lia. split; [lia|reflexivity].
  - destruct H as ((L0 & U0) & (L1 & U1) & Ha & Hb & (L2 & U2) & L3 & U3).
    destruct (le_offset _ _ L0) as (h & ->), (le_offset _ _ L1) as (x & ->), (le_offset _ _ L2) as (y & ->),
      (le_offset _ _ L3) as (z & ->).
    rewrite decode4, encode4 by lia. split; [lia|reflexivity].
Qed.

Lemma base64 c : exists p x, x < 64 /\ c = p * 64 + x.
Proof.
  exists (c / 64), (c mod 64). split; [now apply N.mod_lt|]. rewrite N.mul_comm. apply N.div_mod'.
Qed.

Lemma encode_seq_ok c : scalar c = true -> seq_ok (encode c) = true.
Proof.
  unfold scalar. intros Hs. apply seq_ok_iff.
  destruct (N.lt_ge_cases c 0x80); [now rewrite encode1|].
  destruct (base64 c) as (p & z & Hz & ->).
  destruct (N.lt_ge_cases (p * 64 + z) 0x800); [rewrite encode2; lia|].
  destruct (base64 p) as (q & y & Hy & ->).
  destruct (N.lt_ge_cases ((q * 64 + y) * 64 + z) 0x10000); [rewrite encode3; lia|].
  destruct (base64 q) as (h & x & Hx & ->). rewrite encode4; lia.
Qed.

Lemma wf_valid bs : wf_utf8 bs -> utf8_valid bs = true.
Proof.
  induction 1 as [|c r Hc _ IH]; [reflexivity|]. now rewrite valid_app_seq by now apply encode_seq_ok.
Qed.

Lemma valid_wf bs : utf8_valid bs = true -> wf_utf8 bs.
Proof.
  apply valid_ind; [constructor|]. intros l r [Hs <-]%seq_ok_decode _ Hr. now constructor.
Qed.

Theorem utf8_dfa_correct bs : utf8_valid bs = true <-> wf_utf8 bs.
Proof. split; [apply valid_wf|apply wf_valid]. Qed.

(* no accepted byte is 0xF5 or above *)
Lemma valid_bytes bs : utf8_valid bs = true -> Forall (fun b => b < 0xF5) bs.
Proof.
  apply valid_ind; [constructor|]. intros l r H%seq_ok_iff _ Hr. apply Forall_app. split; [|exact Hr].
  destruct l as [|b0 [|b1 [|b2 [|b3 [|]]]]]; [easy|..|easy]; repeat constructor; lia.
Qed.

Example utf8_examples :
  utf8_valid [0x61; 0xC3; 0xA9; 0xE2; 0x82; 0xAC; 0xF0; 0x9F; 0x98; 0x80] = true /\
  utf8_valid [0xC0; 0x80] = false /\ utf8_valid [0xED; 0xA0; 0x80] = false /\
  utf8_valid [0xF4; 0x90; 0x80; 0x80] = false /\ utf8_valid [0xE2; 0x82] = false /\
  wf_utf8 (encode 0x20AC ++ encode 0x1F600 ++ []).
Proof. repeat split; try reflexivity. repeat constructor. Qed.
