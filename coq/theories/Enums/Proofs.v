From Coq Require Import List ZArith Bool Lia.
Import ListNotations.
From DV Require Import Base.Lists Enums.Model.
Local Open Scope Z_scope.

Lemma contig_from_iff k ds :
  contig_from k ds = true <-> (forall i, (i < length ds)%nat -> nthZ i ds = k + Z.of_nat i).
Proof.
  revert k. induction ds as [|d r IH]; intros k; cbn [contig_from length]; [split; [lia|reflexivity]|].
  rewrite andb_true_iff, Z.eqb_eq, IH. split.
  - intros [<- H] [|i] Hi; [cbn; lia|]. change (nthZ (S i) (k :: r)) with (nthZ i r). rewrite H; lia.
  - intros H. split; [specialize (H 0%nat); cbn in H; lia|]. intros i Hi. change (nthZ i r) with (nthZ (S i) (d :: r)). rewrite H; lia.
Qed.

(* the array shortcut is taken exactly when disc_i = i for all i *)
Theorem contiguous_iff ds :
  is_contiguous ds = true <-> (forall i, (i < length ds)%nat -> nthZ i ds = Z.of_nat i).
Proof. exact (contig_from_iff 0 ds). Qed.

Lemma contig_from_app k p d :
  contig_from k (p ++ [d]) = contig_from k p && (k + Z.of_nat (length p) =? d).
Proof.
  revert k. induction p as [|a p IH]; intros k; cbn [app contig_from length].
  - now rewrite Z.add_0_r, andb_true_r.
  - rewrite IH, <- andb_assoc. do 3 f_equal. lia.
Qed.

Lemma in_range_of_nat ds i : (i < length ds)%nat -> in_range (Z.of_nat i) ds = Some i.
Proof.
  intros Hi. unfold in_range.
  destruct (Z.leb_spec 0 (Z.of_nat i)), (Z.ltb_spec (Z.of_nat i) (Z.of_nat (length ds))); try lia.
  cbn [andb]. now rewrite Nat2Z.id.
Qed.

Lemma index_of_nth ds : NoDup ds -> forall i, (i < length ds)%nat -> index_of (nthZ i ds) ds = Some i.
Proof.
  induction 1 as [|d r Hn Hd IH]; intros i Hi; cbn in Hi; [lia|].
  destruct i as [|i]; unfold nthZ; cbn [nth index_of]; [now rewrite Z.eqb_refl|].
  destruct (Z.eqb_spec d (nth i r 0)) as [E|E].
  - exfalso. apply Hn. rewrite E. apply nth_In. lia.
  - fold (nthZ i r). now rewrite IH by lia.
Qed.

Lemma combine_seq_snoc {A} (p : list A) d :
  combine (seq 0 (length (p ++ [d]))) (p ++ [d]) = combine (seq 0 (length p)) p ++ [(length p, d)].
Proof. rewrite app_length, Nat.add_1_r, seq_S. now rewrite combine_app by (now rewrite seq_length). Qed.

Lemma combine_contig p : forall s, contig_from (Z.of_nat s) p = true ->
  combine (seq s (length p)) p = map (fun k => (k, Z.of_nat k)) (seq s (length p)).
Proof.
  induction p as [|d r IH]; intros s H; cbn; [reflexivity|].
  cbn [contig_from] in H. apply andb_true_iff in H. destruct H as [H1 H2]. apply Z.eqb_eq in H1. subst d.
  f_equal. apply IH. now rewrite Nat2Z.inj_succ.
Qed.

(* Kotlin's two representations both denote  position |-> discriminant *)
Theorem kotlin_fold_correct ds :
  kt_variants_of ds = if is_contiguous ds then KContig (length ds) else KNon (combine (seq 0 (length ds)) ds).
Proof.
  (* by variants added at the end, as the fold consumes them: one more variant either keeps the fold contiguous
     (contig_from_app) or switches it to the table, once and for all (combine_seq_snoc) *)
  induction ds as [|d p IH] using rev_ind; [reflexivity|].
  unfold kt_variants_of. rewrite combine_seq_snoc, fold_left_app. fold (kt_variants_of p). rewrite IH.
  unfold is_contiguous. rewrite contig_from_app. cbn [fold_left kt_step Z.add].
  destruct (contig_from 0 p) eqn:Hc; cbn [andb]; [|reflexivity].
  destruct (Z.of_nat (length p) =? d).
  - now rewrite app_length, Nat.add_1_r.
  - now rewrite <- (combine_contig p 0%nat Hc).
Qed.

Lemma assoc_combine ds : forall s i, (i < length ds)%nat ->
  assoc_nat (s + i) (combine (seq s (length ds)) ds) = Some (nthZ i ds).
Proof.
  induction ds as [|d r IH]; intros s i Hi; cbn in Hi; [lia|]. cbn [length seq combine assoc_nat].
  destruct i as [|i]; [now rewrite Nat.add_0_r, Nat.eqb_refl|].
  destruct (Nat.eqb_spec s (s + S i)); [lia|].
  rewrite <- Nat.add_succ_comm. now rewrite IH by lia.
Qed.

Lemma rassoc_combine n ds : forall s,
  rassoc n (combine (seq s (length ds)) ds) = option_map (Nat.add s) (index_of n ds).
Proof.
  induction ds as [|d r IH]; intros s; cbn [length seq combine rassoc index_of]; [reflexivity|].
  destruct (d =? n); [cbn; now rewrite Nat.add_0_r|]. rewrite IH. destruct (index_of n r); cbn; [now rewrite Nat.add_succ_r|reflexivity].
Qed.

(* the property holds of any list of distinct values, of any length, inferred or not *)
Lemma values_agree ds b i :
  NoDup ds -> (i < length ds)%nat ->
  value_of b ds i = nthZ i ds /\ from_native b ds (nthZ i ds) = Some i.
Proof.
  intros Hn Hi. pose proof (index_of_nth ds Hn i Hi) as Hx. pose proof (kotlin_fold_correct ds) as Hk.
  destruct (is_contiguous ds) eqn:Hc.
  - (* JS, Dart and Kotlin take their shortcut: the discriminant is the position, and positions are in range *)
    pose proof (proj1 (contiguous_iff ds) Hc i Hi) as Hv. pose proof (in_range_of_nat ds i Hi) as Hr. rewrite <- Hv in Hr.
    destruct b; cbn [value_of from_native]; rewrite ?Hk, ?Hc; auto.
    (* left: JS, which reads the value out of its array *)
    split; [now rewrite Hv, Nat2Z.id|exact Hr].
  - (* every backend compares with the enumerators *)
    destruct b; cbn [value_of from_native]; rewrite ?Hc; auto.
    (* left: Kotlin, which consults its table *)
    (* the ascription turns the lemma's [0 + i] into the [i] of the goal *)
    rewrite Hk. now rewrite (assoc_combine ds 0 i Hi : assoc_nat i _ = _), rassoc_combine, Hx.
Qed.

Theorem enum_values_agree vs b i :
  let ds := discriminants vs in
  NoDup ds -> (i < length ds)%nat ->
  value_of b ds i = nthZ i ds /\ from_native b ds (nthZ i ds) = Some i.
Proof. exact (values_agree (discriminants vs) b i). Qed.

Lemma disc_from_length last vs : length (disc_from last vs) = length vs.
Proof. revert last. induction vs as [|[d|] r IH]; intros last; cbn; [reflexivity| |]; now rewrite IH. Qed.

Example enum_example :
  discriminants [Some 5; Some 2; None; Some (-7); None] = [5; 2; 3; -7; -6] /\
  value_of Kotlin [5; 2; 3; -7; -6] 2 = 3 /\ from_native Js [0; 2; 1; 3] 2 = Some 1%nat /\
  value_of Js [0; 1; 2] 1 = 1 /\ kt_variants_of [0; 1; 5] = KNon [(0%nat, 0); (1%nat, 1); (2%nat, 5)].
Proof. repeat split. Qed.
