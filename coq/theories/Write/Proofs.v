From Coq Require Import List Arith NArith Lia.
Import ListNotations.
From DV Require Import Base.Lists Write.Model.

Lemma splice_length m a ch : a + length ch <= length m -> length (splice m a ch) = length m.
Proof. intros H. unfold splice. rewrite !app_length, firstn_length, skipn_length. lia. Qed.

Lemma firstn_splice m a ch :
  a + length ch <= length m -> firstn (a + length ch) (splice m a ch) = firstn a m ++ ch.
Proof. intros H. unfold splice. rewrite app_assoc. apply firstn_app_all. rewrite app_length, firstn_length. lia. Qed.

Lemma firstn_splice_before m a ch n :
  n <= a -> a <= length m -> firstn n (splice m a ch) = firstn n m.
Proof. apply firstn_firstn_app. Qed.

Lemma skipn_splice_after m a ch n :
  a + length ch <= n -> a + length ch <= length m -> skipn n (splice m a ch) = skipn n m.
Proof.
  intros Hn Ha. unfold splice. assert (Hp : length (firstn a m ++ ch) = a + length ch) by (rewrite app_length, firstn_length; lia).
  rewrite app_assoc, skipn_app_ge, skipn_skipn, Hp by lia. f_equal. lia.
Qed.

Lemma splice_idem m a ch : a + length ch <= length m -> splice (splice m a ch) a ch = splice m a ch.
Proof.
  intros H. unfold splice at 1. now rewrite firstn_splice_before, skipn_splice_after by lia.
Qed.

Lemma grow_mem_length s nc f : cap s <= length (mem s) -> cap s <= nc -> length (grow_mem s nc f) = nc.
Proof. intros H1 H2. unfold grow_mem. rewrite app_length, firstn_length, repeat_length. lia. Qed.

Lemma grow_mem_prefix s nc f n :
  n <= cap s -> cap s <= length (mem s) -> firstn n (grow_mem s nc f) = firstn n (mem s).
Proof. apply firstn_firstn_app. Qed.

(* [r] has landed: the writer's content has grown by exactly [r] *)
Definition landed (s s' : wstate) (r : list byte) : Prop :=
  len s' = len s + length r /\ firstn (len s') (mem s') = firstn (len s) (mem s) ++ r.

Lemma landed_nil s : landed s s [].
Proof. split; [cbn; lia|now rewrite app_nil_r]. Qed.

Lemma landed_app s s1 s2 a b : landed s s1 a -> landed s1 s2 b -> landed s s2 (a ++ b).
Proof. intros [Hl1 Hm1] [Hl2 Hm2]. split; [rewrite app_length; lia|now rewrite Hm2, Hm1, app_assoc]. Qed.

(* One write on a live writer: the chunk lands whole, unless the growth it needed failed, and then nothing does and
   the flag is set.  A write that is handed a failing outcome (which is what an exhausted outcome list reads as)
   leaves capacity and allocation as they were. *)
Lemma write_str_cases s ch g :
  wf s -> failed s = false ->
  let '(s', ev) := write_str s ch g in
  wf s' /\ Forall ev_in_bounds ev /\ ev_failed ev = failed s' /\
  landed s s' (if failed s' then [] else ch) /\
  (g = GFail -> cap s' = cap s /\ length (mem s') = length (mem s)).
Proof.
  intros [Hl Hc] Hf. unfold write_str, landed, wf. rewrite Hf.
  destruct (Nat.ltb_spec (cap s) (len s + length ch)) as [Hg|Hg]; [destruct g as [|extra fill]|]; cbn.
  - (* the growth fails; what split leaves is the Forall over the one event *)
    rewrite app_nil_r. repeat split; auto; try lia. repeat constructor.
  - (* it succeeds *)
    pose proof (grow_mem_length s (len s + length ch + extra) fill Hc) as Hgl.
    rewrite splice_length, firstn_splice, grow_mem_prefix by lia.
    repeat split; try lia; try discriminate. repeat constructor; cbn; lia.
  - (* none is needed *)
    rewrite splice_length, firstn_splice by lia. repeat split; try lia. repeat constructor; cbn; lia.
Qed.

Lemma write_str_sticky s ch g : failed s = true -> write_str s ch g = (s, []).
Proof. intros H. unfold write_str. now rewrite H. Qed.

Lemma run_sticky chunks : forall s gs, failed s = true -> run s chunks gs = (s, map (fun _ => []) chunks).
Proof.
  induction chunks as [|c cs IH]; intros s gs Hf; cbn [run map]; [reflexivity|].
  rewrite write_str_sticky by exact Hf. now rewrite IH.
Qed.

Lemma first_fail_all_nil evss : Forall (fun ev : list event => ev = []) evss -> first_fail evss = length evss.
Proof.
  induction 1 as [|ev r Hev _ IH]; [reflexivity|]. subst ev. cbn. now rewrite IH.
Qed.

Lemma run_length chunks : forall s gs, length (snd (run s chunks gs)) = length chunks.
Proof.
  induction chunks as [|c cs IH]; intros s gs; cbn [run]; [reflexivity|].
  destruct (write_str s c (hd GFail gs)) as [s1 ev].
  specialize (IH s1 (if grows s c then tl gs else gs)).
  destruct (run s1 cs _) as [s2 evs]. cbn [snd length] in *. now rewrite IH.
Qed.

(* [spec] takes the same step as [run], without the memory *)
Lemma spec_cons s ch cs gs : failed s = false ->
  spec (len s) (cap s) (ch :: cs) gs =
  let s1 := fst (write_str s ch (hd GFail gs)) in
  if failed s1 then ([], true)
  else let '(r, f) := spec (len s1) (cap s1) cs (if grows s ch then tl gs else gs) in (ch ++ r, f).
Proof.
  intros Hf. cbn [spec]. unfold write_str, grows. rewrite Hf. cbn [negb andb].
  destruct (cap s <? len s + length ch); [destruct gs as [|[|extra fill] gs']|]; reflexivity.
Qed.

(* What holds of every run [(s', evss) = run s chunks gs] of a live writer, in closed form: the chunks before the first
   failed growth have landed, whole, and nothing else has; the flag says whether there was one; [spec] computes the same
   content and flag. *)
Set Implicit Arguments.
Record after_run (s : wstate) (chunks : list (list byte)) (gs : list gout) (s' : wstate) (evss : list (list event)) : Prop := {
  ar_wf : wf s';
  ar_bounds : Forall (Forall ev_in_bounds) evss;
  ar_index : first_fail evss <= length chunks;
  ar_failed : failed s' = (first_fail evss <? length chunks);
  ar_landed : landed s s' (concat (firstn (first_fail evss) chunks));
  ar_spec : spec (len s) (cap s) chunks gs = (concat (firstn (first_fail evss) chunks), failed s');
  ar_no_outcomes : gs = [] -> cap s' = cap s /\ length (mem s') = length (mem s) }.
Unset Implicit Arguments.

Lemma run_exact chunks : forall s gs,
  wf s -> failed s = false -> after_run s chunks gs (fst (run s chunks gs)) (snd (run s chunks gs)).
Proof.
  induction chunks as [|c cs IH]; intros s gs Hwf Hf.
  - constructor; cbn; rewrite ?Hf; auto using landed_nil.
  - cbn [run]. pose proof (spec_cons s c cs gs Hf) as Hsc.
    pose proof (write_str_cases s c (hd GFail gs) Hwf Hf) as H1.
    destruct (write_str s c (hd GFail gs)) as [s1 ev]. cbn [fst] in Hsc. destruct H1 as (Hwf1 & Hb1 & Hev & Hld1 & Hc1).
    destruct (failed s1) eqn:Hf1.
    + (* the flag is set: nothing more happens *)
      rewrite run_sticky by exact Hf1. cbn [fst snd].
      constructor; cbn [first_fail firstn concat]; rewrite ?Hev, ?Hf1, ?Hsc; auto; cbn; try lia.
      * (* ar_bounds *) constructor; [exact Hb1|]. apply Forall_map, Forall_forall. constructor.
      * (* ar_no_outcomes *) intros ->. now apply Hc1.
    + (* the chunk has landed: the rest of the run starts from s1 *)
      specialize (IH s1 (if grows s c then tl gs else gs) Hwf1 Hf1).
      destruct (run s1 cs _) as [s2 evs]. cbn [fst snd] in *. destruct IH as [Hwf2 Hb2 Hk Hf2 Hld2 Hsp Hc2].
      constructor; cbn [first_fail firstn concat length]; rewrite ?Hev, ?Hsc, ?Hsp; auto; try lia.
      * (* ar_landed *) now apply landed_app with s1.
      * (* ar_no_outcomes *) intros ->. destruct (Hc1 eq_refl) as [<- <-]. apply Hc2. now destruct (grows s c).
Qed.

Theorem write_seq_exact s chunks gs :
  wf s -> failed s = false ->
  let s' := fst (run s chunks gs) in
  let k := first_fail (snd (run s chunks gs)) in
  firstn (len s') (mem s') = firstn (len s) (mem s) ++ concat (firstn k chunks) /\
  (failed s' = true <-> k < length chunks).
Proof.
  intros Hwf Hf. pose proof (run_exact chunks s gs Hwf Hf) as R.
  split; [apply R.(ar_landed)|]. rewrite R.(ar_failed). apply Nat.ltb_lt.
Qed.

Theorem write_seq_no_partial s chunks gs :
  wf s -> failed s = false ->
  exists k, k <= length chunks /\
    len (fst (run s chunks gs)) = len s + length (concat (firstn k chunks)).
Proof.
  intros Hwf Hf. pose proof (run_exact chunks s gs Hwf Hf) as R.
  eexists. split; [apply R.(ar_index)|apply R.(ar_landed)].
Qed.

Theorem write_seq_in_bounds s chunks gs :
  wf s -> failed s = false ->
  wf (fst (run s chunks gs)) /\ Forall (Forall ev_in_bounds) (snd (run s chunks gs)).
Proof.
  intros Hwf Hf. pose proof (run_exact chunks s gs Hwf Hf) as R. exact (conj R.(ar_wf) R.(ar_bounds)).
Qed.

Theorem write_sticky s chunks gs :
  failed s = true ->
  fst (run s chunks gs) = s /\ get_bytes s = None /\ get_len s = 0.
Proof. intros Hf. unfold get_bytes, get_len. now rewrite run_sticky, Hf. Qed.

Theorem write_spec_agrees s chunks gs :
  wf s -> failed s = false -> len s = 0 ->
  let s' := fst (run s chunks gs) in
  firstn (len s') (mem s') = fst (spec 0 (cap s) chunks gs) /\ failed s' = snd (spec 0 (cap s) chunks gs).
Proof.
  intros Hwf Hf Hl. pose proof (run_exact chunks s gs Hwf Hf) as R.
  destruct R.(ar_landed) as [_ Hm]. pose proof R.(ar_spec) as E. rewrite Hl in Hm, E. cbv zeta. now rewrite E, Hm.
Qed.

(* Fixed-size writer: NUL lands inside the caller's buffer; nothing after it is touched;
   flush is idempotent. *)
Theorem simple_flush_in_caller_buffer buf chunks :
  1 <= length buf ->
  let s := run_simple buf chunks in
  let '(s', ev) := simple_flush s in
  len s < length buf /\ Forall ev_in_bounds ev /\ length (mem s') = length buf /\
  firstn (S (len s)) (mem s') = firstn (len s) (mem s) ++ [0%N] /\
  fst (simple_flush s') = s' /\
  exists k, k <= length chunks /\ firstn (len s) (mem s) = concat (firstn k chunks).
Proof.
  intros Hb. unfold run_simple.
  assert (Hwf : wf (simple_init buf)) by (unfold wf; cbn; lia).
  pose proof (run_exact chunks _ [] Hwf eq_refl) as R.
  destruct R.(ar_wf) as [Hw1 Hw2], R.(ar_landed) as [_ Hm], (R.(ar_no_outcomes) eq_refl) as [Hc Hl].
  pose proof R.(ar_index) as Hk. clear R.
  destruct (run (simple_init buf) chunks []) as [s evss]. cbn [fst snd simple_init mem cap len] in *.
  unfold simple_flush. cbn [fst len cap mem failed].
  rewrite splice_idem, splice_length, <- (Nat.add_1_r (len s)) by (cbn; lia).
  (* of the six conjuncts, the bound on len and the size of the buffer are arithmetic, and idempotence has become an
     identity by splice_idem; three are left *)
  repeat split; try lia.
  - (* the store of the NUL is in bounds *) constructor; [cbn; lia|constructor].
  - (* the content is kept, the NUL follows it *) apply (firstn_splice _ _ [_]). cbn; lia.
  - (* the content is whole chunks *) exists (first_fail evss). exact (conj Hk Hm).
Qed.

Lemma all_ok_spec chunks : forall l c gs,
  all_ok gs = true -> length chunks <= length gs -> spec l c chunks gs = (concat chunks, false).
Proof.
  induction chunks as [|ch cs IH]; intros l c gs Hok Hlen; cbn [spec concat]; [reflexivity|].
  destruct (c <? l + length ch).
  - (* a growth: it consumes an outcome, which is there and is a success *)
    destruct gs as [|[|extra fill] gs']; cbn in Hok, Hlen; [lia|discriminate|].
    now rewrite IH by (assumption || lia).
  - cbn in Hlen. now rewrite IH by (assumption || lia).
Qed.

Lemma run_all_ok s chunks gs :
  wf s -> failed s = false -> all_ok gs = true -> length chunks <= length gs ->
  let s' := fst (run s chunks gs) in landed s s' (concat chunks) /\ failed s' = false.
Proof.
  intros Hwf Hf Hok Hlen. pose proof (run_exact chunks s gs Hwf Hf) as R.
  pose proof R.(ar_spec) as E. rewrite all_ok_spec in E by assumption. injection E as E1 E2.
  split; [rewrite E1; apply R.(ar_landed)|auto].
Qed.

Lemma owned_wf c : wf (owned_init c).
Proof. unfold wf. cbn. rewrite repeat_length. lia. Qed.

(* Rust-owned writer: growth never fails, so everything written is there. *)
Theorem owned_never_fails c chunks gs :
  all_ok gs = true -> length chunks <= length gs ->
  let s' := fst (run (owned_init c) chunks gs) in
  get_bytes s' = Some (concat chunks) /\ get_len s' = length (concat chunks).
Proof.
  intros Hok Hlen. destruct (run_all_ok _ chunks gs (owned_wf c) eq_refl Hok Hlen) as ([Hl Hm] & Hf).
  unfold get_bytes, get_len. now rewrite Hf, Hm, Hl.
Qed.

(* C++ WriteFromString: grow always succeeds exactly, flush trims; the std::string is the
   concatenation of everything written. *)
Theorem cpp_string_result c chunks :
  let s' := fst (run (owned_init c) chunks (cpp_grow_script (length chunks))) in
  cpp_string_after_flush s' = concat chunks /\ failed s' = false.
Proof.
  destruct (run_all_ok _ chunks (cpp_grow_script (length chunks)) (owned_wf c) eq_refl) as ([_ Hm] & Hf).
  - apply forallb_forall. intros g Hg. now apply repeat_spec in Hg; subst.
  - unfold cpp_grow_script. now rewrite repeat_length.
  - exact (conj Hm Hf).
Qed.

(* Non-vacuity: concrete states meeting the hypotheses, and a failing-growth history. *)
Example wf_example : wf (caller_init 4 7%N) /\ failed (caller_init 4 7%N) = false.
Proof. unfold wf; cbn; split; [lia|reflexivity]. Qed.
Example fail_example :
  let r := run (caller_init 2 0%N) [[1;2]; [3]; [4]]%N [GOk 0 9%N; GFail] in
  first_fail (snd r) = 2 /\ failed (fst r) = true /\ firstn (len (fst r)) (mem (fst r)) = [1;2;3]%N.
Proof. vm_compute. repeat split. Qed.
