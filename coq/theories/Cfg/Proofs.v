From Coq Require Import List String Bool Lia.
Import ListNotations.
From DV Require Import Cfg.Model.
Local Open Scope string_scope.
Local Open Scope list_scope.

(* induction principle that sees through the lists of any()/all() *)
Lemma cfg_ind' (P : cfg -> Prop) :
  (forall c, P c -> P (CNot c)) -> (forall l, Forall P l -> P (CAny l)) -> (forall l, Forall P l -> P (CAll l)) ->
  P CStar -> P CAuto -> (forall n, P (CBackend n)) -> (forall n v, P (CNameValue n v)) -> forall c, P c.
Proof.
  intros HNot HAny HAll HStar HAuto HB HNV. fix IH 1. intros [c|l|l| | |n|n v].
  - apply HNot, IH.
  - apply HAny. induction l as [|x l IHl]; constructor; [apply IH|exact IHl].
  - apply HAll. induction l as [|x l IHl]; constructor; [apply IH|exact IHl].
  - exact HStar.
  - exact HAuto.
  - apply HB.
  - apply HNV.
Qed.

(* the two loops answer with the disjunction / conjunction of what the body answers, if they answer at all *)
Lemma any_loop_sound f (d : cfg -> bool) l : Forall (fun x => forall v a, f x = ROk v a -> v = d x) l ->
  forall acc v a, any_loop f l acc = ROk v a -> v = existsb d l.
Proof.
  induction 1 as [|x r Hx _ IH]; cbn [existsb any_loop]; intros acc v a H; [now inversion H|].
  destruct (f x) as [[|] a'|]; try discriminate; rewrite <- (Hx _ _ eq_refl); [now inversion H|eauto].
Qed.

Lemma all_loop_sound f (d : cfg -> bool) l : Forall (fun x => forall v a, f x = ROk v a -> v = d x) l ->
  forall v a, all_loop f l = ROk v a -> v = forallb d l.
Proof.
  induction 1 as [|x r Hx _ IH]; cbn [forallb all_loop]; intros v a H; [now inversion H|].
  destruct (f x) as [[|] a'|]; try discriminate; rewrite <- (Hx _ _ eq_refl); [eauto|now inversion H].
Qed.

(* whenever the evaluator answers, it answers with the propositional meaning (any depth, any width) *)
Theorem sat_sound b c : forall a v f, sat b c a = ROk v f -> v = denote b c.
Proof.
  induction c as [c IH|l IH|l IH| | |n|n v'] using cfg_ind'; intros a v f H; cbn [sat denote] in *.
  - destruct (sat b c false) as [x f'|] eqn:E; inversion H. f_equal. eauto.
  - eapply any_loop_sound; [|exact H]. eapply Forall_impl; [|exact IH]. eauto.
  - eapply all_loop_sound; [|exact H]. eapply Forall_impl; [|exact IH]. eauto.
  - now inversion H.
  - destruct a; now inversion H.
  - now inversion H.
  - now rewrite H.
Qed.

(* an attribute whose condition is false for this backend is as if it were not written at all:
   any payload, any position in the attribute list, any parent *)
Theorem false_cfg_is_noop b c p l1 l2 parent f :
  sat b c true = ROk false f ->
  from_ast b (l1 ++ (c, p) :: l2) parent = from_ast b (l1 ++ l2) parent.
Proof.
  intros H. unfold from_ast. rewrite !fold_left_app. cbn [fold_left].
  unfold attr_step at 2. now rewrite H.
Qed.

Corollary false_denotation_is_noop b c p l1 l2 parent v f :
  sat b c true = ROk v f -> denote b c = false ->
  from_ast b (l1 ++ (c, p) :: l2) parent = from_ast b (l1 ++ l2) parent.
Proof.
  intros H Hd. apply (false_cfg_is_noop b c p l1 l2 parent f). now rewrite <- Hd, <- (sat_sound b c true v f H).
Qed.

Definition sat_disable (b : string) (a : attr) : bool :=
  match a with (c, PDisable) => match sat b c true with ROk true _ => true | _ => false end | _ => false end.
Definition sat_rename (b : string) (a : attr) : option string :=
  match a with (c, PRename s) => match sat b c true with ROk true _ => Some s | _ => None end | _ => None end.

(* what one attribute does to each field of the state *)
Lemma attr_step_disable b h a : disable (attr_step b h a) = disable h || sat_disable b a.
Proof.
  destruct a as [c []]; unfold attr_step, sat_disable; destruct (sat b c true) as [[|] f|]; cbn [disable];
    rewrite ?orb_false_r; try reflexivity. now destruct (disable h).
Qed.

Lemma attr_step_rename b h a :
  rename (attr_step b h a) = match sat_rename b a with Some s => Some s | None => rename h end.
Proof.
  destruct a as [c []]; unfold attr_step, sat_rename; destruct (sat b c true) as [[|] f|]; try reflexivity.
  now destruct (disable h).
Qed.

Lemma attr_step_errs b h a : errs h <= errs (attr_step b h a).
Proof.
  destruct a as [c []]; unfold attr_step; destruct (sat b c true) as [[|] f|]; cbn [errs]; try lia.
  destruct (disable h); cbn [errs]; lia.
Qed.

(* "Duplicate `disable` attribute" *)
Lemma attr_step_errs_dup b h a : disable h = true -> sat_disable b a = true -> errs h < errs (attr_step b h a).
Proof.
  destruct a as [c []]; unfold attr_step, sat_disable; destruct (sat b c true) as [[|] f|]; try discriminate.
  intros -> _. cbn [errs]. lia.
Qed.

Lemma fold_errs_mono b l : forall h, errs h <= errs (fold_left (attr_step b) l h).
Proof.
  induction l as [|a r IH]; intros h; cbn [fold_left]; [lia|].
  etransitivity; [apply (attr_step_errs b h a)|apply IH].
Qed.

(* disabled  <->  inherited disable, or some disable attribute on the item whose condition holds *)
Theorem disable_iff b attrs : forall parent,
  disable (from_ast b attrs parent) = disable parent || existsb (sat_disable b) attrs.
Proof.
  unfold from_ast. induction attrs as [|a r IH]; intros parent; cbn [fold_left existsb].
  - now rewrite orb_false_r.
  - now rewrite IH, attr_step_disable, orb_assoc.
Qed.

(* accepted modules never carry two applicable disables on one inheritance path *)
Theorem accepted_single_disable b attrs parent :
  errs (from_ast b attrs parent) = errs parent ->
  disable parent = true -> existsb (sat_disable b) attrs = false.
Proof.
  unfold from_ast. revert parent. induction attrs as [|a r IH]; intros parent He Hd; cbn [fold_left existsb] in *; [reflexivity|].
  pose proof (attr_step_errs b parent a). pose proof (fold_errs_mono b r (attr_step b parent a)).
  destruct (sat_disable b a) eqn:Ea.
  - pose proof (attr_step_errs_dup b parent a Hd Ea). lia.
  - apply (IH (attr_step b parent a)); [lia|]. now rewrite attr_step_disable, Hd.
Qed.

Fixpoint last_some {A} (l : list (option A)) (d : option A) : option A :=
  match l with [] => d | Some x :: r => last_some r (Some x) | None :: r => last_some r d end.

(* the innermost (= last written on the inheritance path) applicable rename wins *)
Theorem rename_effective b attrs : forall parent,
  rename (from_ast b attrs parent) = last_some (map (sat_rename b) attrs) (rename parent).
Proof.
  unfold from_ast. induction attrs as [|a r IH]; intros parent; cbn [fold_left map last_some]; [reflexivity|].
  rewrite IH, attr_step_rename. now destruct (sat_rename b a).
Qed.

(* `disable` is inherited by types and by methods alike *)
Lemma type_disabled b m t :
  disable (type_attrs b m t) = existsb (sat_disable b) m || existsb (sat_disable b) t.
Proof. unfold type_attrs. rewrite disable_iff. cbn [for_inheritance disable]. now rewrite disable_iff. Qed.

Lemma method_disabled b m i me :
  disable (method_attrs b m i me) = existsb (sat_disable b) m || existsb (sat_disable b) (i ++ me).
Proof. unfold method_attrs. rewrite disable_iff. cbn [for_inheritance disable]. now rewrite disable_iff. Qed.

(* a method is present iff nothing on its path disables it *)
Theorem method_present_spec b m t i me v :
  method_present b m t i me = Some v ->
  v = negb (existsb (sat_disable b) m || existsb (sat_disable b) t || existsb (sat_disable b) (i ++ me)).
Proof.
  unfold method_present. rewrite type_disabled, method_disabled.
  destruct (Nat.eqb (errs (type_attrs b m t)) 0); [|discriminate]. cbn [negb].
  (* under a module or type that is disabled the method is not looked at *)
  destruct (existsb (sat_disable b) m), (existsb (sat_disable b) t); cbn [orb]; try (now intros [= <-]).
  destruct (Nat.eqb (errs (method_attrs b m i me)) 0); [now intros [= <-]|discriminate].
Qed.

(* rename patterns: {0} is replaced by the name, a pattern without {0} is a pure rename *)
Example apply_examples :
  apply_pattern "Renamed{0}" "Foo" = "RenamedFoo" /\ apply_pattern "pre_{0}_post" "x" = "pre_x_post" /\
  apply_pattern "Other" "Foo" = "Other" /\ apply_pattern "{0}" "Foo" = "Foo".
Proof. repeat split. Qed.

Example cfg_examples :
  sat "cpp" (CAll [CBackend "cpp"; CNot (CBackend "js")]) true = ROk true false /\
  sat "demo_gen" (CBackend "js") true = ROk true false /\
  sat "cpp" (CNot CAuto) true = RErr /\ sat "js" (CAny [CAuto; CBackend "c"]) true = ROk true true /\
  canary "js" OnType (CAuto, PDisable) = (None, None) /\
  canary "cpp" OnImpl (CBackend "cpp", PDisable) = (Some true, Some false) /\
  canary "c" OnType (CNameValue "supports" "callbacks", PDisable) = (Some false, Some false).
Proof. repeat split. Qed.
