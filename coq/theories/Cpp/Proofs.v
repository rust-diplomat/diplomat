From Coq Require Import List ZArith Bool.
Import ListNotations.
From DV Require Import Utf8.Model Utf8.Proofs Cpp.Model.

(* the induction principle Coq generates gives no hypothesis for the fields of a struct; this one does *)
Lemma ty_ind' (P : ty -> Prop) :
  P TScalar -> (forall l, Forall P l -> P (TStruct l)) -> (forall t, P t -> P (TOpt t)) -> P TPtrOpt -> P TView ->
  forall t, P t.
Proof.
  intros HS HR HO HP HV. fix IH 1. intros [|l|t| |].
  - exact HS.
  - apply HR. induction l as [|t l IHl]; constructor; [apply IH|exact IHl].
  - apply HO, IH.
  - exact HP.
  - exact HV.
Qed.

(* values of every nesting depth arrive unchanged *)
Theorem to_cpp_to_c t : forall x, well_typed t x = true -> to_cpp t (to_c t x) = x.
Proof.
  induction t as [|ts IH|t IH| |] using ty_ind'; intros [z|xs|o|p|es] H; try discriminate H; cbn [to_c to_cpp].
  - reflexivity.
  - f_equal. revert xs H. induction IH as [|t ts Ht _ IHts]; intros [|x xs] H; try discriminate H; [reflexivity|].
    apply andb_true_iff in H as [H1 H2]. f_equal; auto.
  - destruct o as [y|]; [|reflexivity]. now rewrite IH.
  - destruct p as [p|]; [|reflexivity]. apply negb_true_iff in H. now rewrite H.
  - reflexivity.
Qed.

(* the arm taken and its payload survive the return conversion *)
Theorem ret_arm_preserved tok terr r :
  match r with ROk a => well_typed tok a = true | RErr b => well_typed terr b = true end ->
  let '(po, pe, flag) := ret_to_c tok terr r in ret_to_cpp tok terr po pe flag = r.
Proof.
  destruct r as [a|b]; intros H; cbn; f_equal; now apply to_cpp_to_c.
Qed.

(* a None never exposes a stale payload *)
Theorem none_ignores_payload t junk : to_cpp (TOpt t) (COpt junk false) = VOptV None.
Proof. now destruct junk. Qed.

(* a directly passed &str that is not valid UTF-8 is rejected before the C call; valid ones reach Rust unchanged *)
Theorem invalid_utf8_never_reaches_rust bytes :
  (~ wf_utf8 bytes -> call_with_str bytes = Utf8Error) /\
  (wf_utf8 bytes -> call_with_str bytes = ReachesRust bytes).
Proof.
  unfold call_with_str. rewrite <- utf8_dfa_correct. now destruct (utf8_valid bytes).
Qed.

Local Open Scope Z_scope.
Example transport_example :
  agree_transport (TStruct [TScalar; TOpt (TStruct [TScalar; TOpt TScalar]); TPtrOpt; TView])
    (VRec [VS 7; VOptV (Some (VRec [VS (-1); VOptV None])); VPtr (Some 4096); VViewV [1; 2; 3]])
    (VRec [VS 7; VOptV (Some (VRec [VS (-1); VOptV None])); VPtr (Some 4096); VViewV [1; 2; 3]]) = true.
Proof. reflexivity. Qed.
