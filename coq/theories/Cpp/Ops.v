(* C++ bindings: the code the backend synthesises around special methods (tool/templates/cpp/method_impl.h.jinja):
   the six relational operators derived from a `comparison` method, and the compound assignment `a op= b` derived
   from a binary arithmetic method on a value type.  The Rust methods themselves are parameters. *)
From Coq Require Import List ZArith Bool.
Import ListNotations.
Open Scope Z_scope.

(* operator==, !=, <=, >=, <, > in the order the template emits them; c is the int8 the comparison returned *)
Definition rels_of (c : Z) : list bool := [c =? 0; negb (c =? 0); c <=? 0; c >=? 0; c <? 0; c >? 0].

Section Compound.
  Variable T : Type.
  Variable op : T -> T -> T.          (* the Rust method behind `operator op` *)
  (* `*this = *this op rhs; return *this;` *)
  Definition compound (this rhs : T) : T := op this rhs.
  (* (a op= b1) op= b2 ...: the returned reference is the updated object *)
  Definition compound_chain (a : T) (bs : list T) : T := fold_left compound bs a.

  Lemma compound_chain_snoc a bs b : compound_chain a (bs ++ [b]) = op (compound_chain a bs) b.
  Proof. unfold compound_chain. rewrite fold_left_app. reflexivity. Qed.
End Compound.

(* the derived operators describe one trichotomy: exactly one of <, ==, > holds, and the others are its complements *)
Lemma rels_trichotomy c :
  match rels_of c with
  | [eq; ne; le; ge; lt; gt] =>
      ne = negb eq /\ le = negb gt /\ ge = negb lt /\ le = (lt || eq) /\ ge = (gt || eq) /\
      (if lt then negb eq && negb gt else if eq then negb gt else gt) = true
  | _ => False
  end.
Proof. (* each operator reads only the sign of c, and a Z is zero, positive or negative *) now destruct c. Qed.

(* with an antisymmetric comparison (cmp b a = - cmp a b, as Ord::cmp is), swapping the operands mirrors the operators *)
Lemma rels_swap c :
  match rels_of c, rels_of (- c) with
  | [eq; ne; le; ge; lt; gt], [eq'; ne'; le'; ge'; lt'; gt'] => eq' = eq /\ ne' = ne /\ le' = ge /\ ge' = le /\ lt' = gt /\ gt' = lt
  | _, _ => False
  end.
Proof. (* negation swaps the two signs *) now destruct c. Qed.

Fixpoint bools_eqb (a b : list bool) : bool :=
  match a, b with [], [] => true | x :: a', y :: b' => Bool.eqb x y && bools_eqb a' b' | _, _ => false end.
(* the operators C++ evaluated on (a, b) against the value Rust's comparison returned for (a, b) *)
Definition agree_rels (cmp : Z) (observed : list bool) : bool := bools_eqb (rels_of cmp) observed.

Fixpoint zs_eqb (a b : list Z) : bool :=
  match a, b with [], [] => true | x :: a', y :: b' => Z.eqb x y && zs_eqb a' b' | _, _ => false end.
(* values are observed as integer tuples; `binary` is what `a op b` gave, `then_b` what `(a op b) op b` gave *)
Definition agree_compound (binary compound_obs : list Z) : bool := zs_eqb binary compound_obs.
