From Coq Require Import List String Arith Lia.
Import ListNotations.
From DV Require Import Base.Lists gen.Tables Docs.Model.
Open Scope string_scope.
Local Notation length := List.length (only parsing).

(* only the kind without a page of its own (Mod: the unreachable!() arm) has no page prefix, and it asks for no segments *)
Lemma prefix_none_need t : page_prefix t = None -> need t = 0.
Proof. destruct t; (discriminate || reflexivity). Qed.

Lemma last_seg_some p : p <> [] -> exists x, last_seg p = Some x.
Proof. induction p as [|x [|y p] IH]; intros H; [congruence|cbn; eauto|]. apply IH. discriminate. Qed.

(* the unreachable!() arm for Mod is indeed unreachable, and nothing else can fail: URL generation is total *)
Lemma gen_url_total g l : l_path l <> [] -> exists u, gen_url g l = Some u.
Proof.
  intros Hne. unfold gen_url. destruct (l_path l) as [|c p] eqn:Hp; [congruence|].
  destruct (skipn _ _) as [|item ms] eqn:Hs; [eauto|].
  destruct (page_prefix (l_typ l)) as [pre|] eqn:Hpre; [eauto|].
  rewrite (prefix_none_need _ Hpre), Nat.sub_0_r, skipn_all in Hs. discriminate.
Qed.

Lemma normals_total g ls : Forall (fun l => l_path l <> []) ls -> forall acc, exists s, normals g ls acc = Some s.
Proof.
  induction 1 as [|l r Hl _ IH]; intros acc; cbn [normals]; [eauto|].
  destruct (l_disp l); auto.
  destruct (gen_url_total g l Hl) as [u ->], (last_seg_some _ Hl) as [nm ->]. auto.
Qed.

Lemma compacts_total g ls : Forall (fun l => l_path l <> []) ls -> forall i acc, exists s, compacts g ls i acc = Some s.
Proof.
  induction 1 as [|l r Hl _ IH]; intros i acc; cbn [compacts]; [eauto|].
  destruct (gen_url_total g l Hl) as [u ->]. auto.
Qed.

Lemma to_markdown_total g d : (forall l, In l (d_links d) -> l_path l <> []) -> exists s, to_markdown g d = Some s.
Proof.
  intros H. apply Forall_forall in H. unfold to_markdown.
  destruct (normals_total g _ H (doc_text (d_lines d))) as [acc ->].
  destruct (filter is_compact (d_links d)) eqn:Hf; [eauto|]. rewrite <- Hf.
  apply compacts_total. eapply incl_Forall; [apply incl_filter|exact H].
Qed.

(* before the repair the same statement was false ... *)
Lemma unrepaired_refuted :
  exists g l, l_path l <> [] /\ gen_url_unrepaired g l = None.
Proof.
  exists (mkGen None []), (mkLink ["Foo"] DFnInStruct Normal). split; [discriminate|]. vm_compute. reflexivity.
Qed.

Lemma members_strict_sound t ms m : members_part_strict t ms = Some m -> members_part t ms = m.
Proof.
  unfold members_part_strict, members_part. destruct (anchor t) as [a|]; [|congruence].
  destruct ms as [|x [|f rest]], (is_evf t); try discriminate; intros [= <-]; now rewrite ?append_nil_r.
Qed.

(* ... and the repair changes nothing wherever the old generator produced a URL at all (whatever the per-kind tables are) *)
Lemma repair_is_conservative g l u : gen_url_unrepaired g l = Some u -> gen_url g l = Some u.
Proof.
  unfold gen_url_unrepaired, gen_url. destruct (l_path l) as [|c p]; [discriminate|].
  destruct (Nat.ltb _ _); [discriminate|]. destruct (skipn _ _) as [|item ms]; [auto|].
  destruct (page_prefix _) as [pre|]; [|discriminate].
  destruct (members_part_strict _ ms) as [m|] eqn:Hm; [|discriminate]. now rewrite (members_strict_sound _ _ _ Hm).
Qed.

(* what the URL is, stated on the split path rather than on a computed depth: modules, then the item's page, then the
   member anchor *)
Lemma gen_url_shape g t disp c mods item ms pre :
  page_prefix t = Some pre -> length (item :: ms) = need t ->
  gen_url g (mkLink (c :: mods ++ item :: ms)%list t disp) =
    Some (root g c ++ dirs (c :: mods) ++ pre ++ item ++ ".html" ++ members_part t ms).
Proof.
  intros Hpre Hlen. unfold gen_url. cbn [l_path l_typ].
  replace (length _ - need t) with (length (c :: mods)) by (cbn [List.length] in *; rewrite app_length; cbn [List.length]; lia).
  change (c :: mods ++ item :: ms)%list with ((c :: mods) ++ item :: ms)%list.
  rewrite firstn_app, firstn_all, skipn_app, skipn_all, Nat.sub_diag, app_nil_r. cbn [skipn app].
  now rewrite Hpre.
Qed.

Lemma gen_url_mod g disp c mods :
  gen_url g (mkLink (c :: mods) DMod disp) = Some (root g c ++ dirs (c :: mods) ++ "index.html").
Proof.
  unfold gen_url. cbn [l_path l_typ need]. now rewrite Nat.sub_0_r, skipn_all, firstn_all.
Qed.

Module Examples.
  (* an ordinary link: the URL is what docs.rs serves *)
  Example shape_instance :
    gen_url (mkGen None []) (mkLink ["foo"; "bar"; "Baz"; "m"] DFnInStruct Normal)
    = Some "https://docs.rs/foo/latest/foo/bar/struct.Baz.html#method.m".
  Proof. vm_compute. reflexivity. Qed.
  Example short_instance :
    gen_url (mkGen (Some "https://x.y") []) (mkLink ["Foo"] DFnInStruct Normal) = Some "https://x.y/struct.Foo.html".
  Proof. vm_compute. reflexivity. Qed.
  Example markdown_instance :
    to_markdown (mkGen None [("foo", "https://u/")])
      (mkDocs [" A. "; ""; "B"] [mkLink ["foo"; "T"] DStruct Normal; mkLink ["foo"; "T"; "f"] DFnInStruct Compact; mkLink ["foo"] DMod Compact])
    = Some ("A." ++ nl ++ nl ++ "B" ++ nl ++ nl ++ "See the [Rust documentation for `T`](https://u/foo/struct.T.html) for more information."
            ++ nl ++ nl ++ "Additional information: [1](https://u/foo/struct.T.html#method.f), [2](https://u/foo/index.html)").
  Proof. vm_compute. reflexivity. Qed.
End Examples.
