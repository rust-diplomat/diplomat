From Coq Require Import List Bool String Ascii.
Import ListNotations.
From DV Require Import Config.Model.
Local Open Scope string_scope.
Local Open Scope list_scope.

Lemma key_eqb_spec a b : reflect (a = b) (key_eqb a b).
Proof.
  destruct a as [a1 a2], b as [b1 b2]. unfold key_eqb. cbn [fst snd].
  destruct (String.eqb_spec a1 b1), (String.eqb_spec a2 b2); constructor; congruence.
Qed.

Lemma lookup_insert m k v k' :
  lookup (insert m k v) k' = if key_eqb k k' then Some v else lookup m k'.
Proof.
  induction m as [|[[l n] v0] r IH]; cbn [insert lookup]; [now destruct k|].
  destruct (key_eqb_spec (l, n) k) as [<-|N]; cbn [lookup].
  - (* the entry for k: replaced *) now destruct (key_eqb (l, n) k').
  - (* another entry: kept; if it is the one for k', then k' is not k *)
    destruct (key_eqb_spec (l, n) k') as [<-|_]; [|exact IH]. now destruct (key_eqb_spec k (l, n)) as [->|_].
Qed.

Lemma last_write_app sc n a b :
  last_write sc n (a ++ b) = match last_write sc n b with Some v => Some v | None => last_write sc n a end.
Proof.
  induction a as [|[[sc' n'] v] a IH]; cbn [app last_write]; [now destruct (last_write sc n b)|].
  rewrite IH. now destruct (last_write sc n b).
Qed.

Lemma last_write_snoc sc n ws sc' n' v :
  last_write sc n (ws ++ [(sc', n', v)]) = if scope_eqb sc sc' && (n =? n') then Some v else last_write sc n ws.
Proof. rewrite last_write_app. cbn [last_write]. now destruct (scope_eqb sc sc' && (n =? n')). Qed.

Lemma last_write_typed sc n ws v :
  forallb well_typed ws = true -> last_write sc n ws = Some v -> well_typed (sc, n, v) = true.
Proof.
  induction ws as [|[[sc' n'] v'] r IH]; cbn [forallb last_write]; [discriminate|].
  intros [H1 H2]%andb_true_iff. destruct (last_write sc n r); [now apply IH|].
  destruct (scope_eqb sc sc' && (n =? n')) eqn:E; [|discriminate].
  apply andb_true_iff in E. destruct E as [_ ->%String.eqb_eq]. now intros [= <-].
Qed.

(* The shared settings as a store: one slot per overriding key.  [shared_set] on a well-typed value is a store update,
   and so is appending a write to a history ([last_write_snoc]). *)
Definition field (s : shared) (n : string) : option value :=
  if n =? "lib_name" then option_map VS (lib_name s) else option_map VB (unsafe_refs s).

Definition str_of (v : option value) : option string := match v with Some (VS x) => Some x | _ => None end.
Definition bool_of (v : option value) : option bool := match v with Some (VB b) => Some b | _ => None end.

Lemma str_of_field s : str_of (field s "lib_name") = lib_name s.
Proof. now destruct s as [[x|] u]. Qed.

Lemma bool_of_field s : bool_of (field s "unsafe_references_in_callbacks") = unsafe_refs s.
Proof. now destruct s as [l [b|]]. Qed.

Lemma overrides_cases n : overrides_shared n = true -> n = "lib_name" \/ n = "unsafe_references_in_callbacks".
Proof. unfold overrides_shared. now intros [H|H]%orb_true_iff; apply String.eqb_eq in H; [left|right]. Qed.

Lemma shared_set_field s n v : overrides_shared n = true -> well_typed (None, n, v) = true ->
  exists s', shared_set s n v = Some s' /\
  forall n', overrides_shared n' = true -> field s' n' = if n' =? n then Some v else field s n'.
Proof.
  (* a sweep over the two overriding keys and the three kinds of value: a value of the wrong type contradicts Hv; for the
     right one [shared_set] computes, and so does [field] of the result at either overriding key n' *)
  intros [->| ->]%overrides_cases Hv; destruct v; try discriminate;
    (eexists; split; [reflexivity|]); now intros n' [->| ->]%overrides_cases.
Qed.

Lemma shared_set_other s n v : overrides_shared n = false -> shared_set s n v = Some s.
Proof. unfold overrides_shared, shared_set. now intros [-> ->]%orb_false_iff. Qed.

(* the slots of a configuration that [get_overridden] reads: the shared settings and the stored overrides of known languages *)
Definition tracked (sc : option string) (n : string) : bool :=
  overrides_shared n && match sc with None => true | Some l => known_lang l end.
Definition read (c : config) (sc : option string) (n : string) : option value :=
  match sc with None => field (sh c) n | Some l => lookup (ovr c) (l, n) end.

Lemma scope_eqb_none_some l : scope_eqb None (Some l) = false.
Proof. reflexivity. Qed.

Lemma lang_set_keeps c l n v : sh (lang_set c l n v) = sh c /\ ovr (lang_set c l n v) = ovr c.
Proof.
  unfold lang_set.
  (* a sweep over the comparisons of language and key, i.e. over the settings of the languages: each branch rebuilds
     the configuration with [sh c] and [ovr c] in their places, or returns c *)
  repeat match goal with |- context [if ?b then _ else _] => destruct b end; cbn; auto.
  (* kotlin.domain keeps the configuration as it is unless the value is a string *)
  now destruct v.
Qed.

(* [set] with a well-typed value is an update of the slot it names, whatever else it changes *)
Lemma set_read c sc n v : well_typed (sc, n, v) = true ->
  exists c', set c sc n v = Some c' /\
  forall sc' n', tracked sc' n' = true ->
    read c' sc' n' = if scope_eqb sc' sc && (n' =? n) then Some v else read c sc' n'.
Proof.
  intros Hw. unfold set, tracked. destruct sc as [l|].
  - destruct (known_lang l) eqn:Hk; [destruct (overrides_shared n) eqn:Ho|].
    + (* an overriding key of a known language: stored among the overrides *)
      eexists. split; [reflexivity|]. intros [l'|] n' _; [|reflexivity]. cbn [read with_ovr ovr scope_eqb].
      rewrite lookup_insert. unfold key_eqb. cbn [fst snd]. now rewrite (String.eqb_sym l), (String.eqb_sym n).
    + (* a setting of the language's own: the shared settings and the overrides stay *)
      eexists. split; [reflexivity|]. destruct (lang_set_keeps c l n v) as [Es Eo].
      intros [l'|] n' [Ho' _]%andb_true_iff; unfold read; rewrite ?Es, ?Eo; [|reflexivity]. cbn [scope_eqb].
      destruct (String.eqb_spec n' n) as [->|_]; [congruence|now rewrite andb_false_r].
    + (* an unknown prefix: ignored *)
      exists c. split; [reflexivity|]. intros [l'|] n' [_ Hk']%andb_true_iff; [|reflexivity]. cbn [scope_eqb].
      destruct (String.eqb_spec l' l) as [->|_]; [congruence|reflexivity].
  - destruct (overrides_shared n) eqn:Ho.
    + (* a shared overriding key *)
      destruct (shared_set_field (sh c) n v Ho Hw) as (s' & -> & Hs'). eexists. split; [reflexivity|].
      intros [l'|] n' [Ho' _]%andb_true_iff; [reflexivity|]. apply Hs', Ho'.
    + (* any other shared key: the shared settings stay *)
      rewrite shared_set_other by exact Ho. eexists. split; [reflexivity|].
      intros [l'|] n' [Ho' _]%andb_true_iff; [reflexivity|]. cbn [scope_eqb andb].
      destruct (String.eqb_spec n' n) as [->|_]; [congruence|reflexivity].
Qed.

Definition Inv (c : config) (ws : list write) : Prop :=
  forall sc n, tracked sc n = true -> read c sc n = last_write sc n ws.

Lemma inv_empty : Inv empty [].
Proof. intros [l|] n _; [reflexivity|]. unfold read, field. now destruct (n =? "lib_name"). Qed.

Lemma run_inv ws' : forall c ws,
  Inv c ws -> forallb well_typed ws' = true ->
  exists c', run c ws' = Some c' /\ Inv c' (ws ++ ws').
Proof.
  induction ws' as [|[[sc n] v] r IH]; intros c ws HI Hw; cbn [run].
  - exists c. now rewrite app_nil_r.
  - cbn [forallb] in Hw. apply andb_true_iff in Hw. destruct Hw as [H1 H2].
    destruct (set_read c sc n v H1) as (c1 & -> & Hc1).
    change (ws ++ (sc, n, v) :: r) with (ws ++ [(sc, n, v)] ++ r). rewrite app_assoc. apply IH; [|exact H2].
    intros sc' n' T. now rewrite last_write_snoc, Hc1, HI.
Qed.

Lemma apply_ovr_field target n c s : overrides_shared n = true ->
  (forall v, lookup (ovr c) (target, n) = Some v -> well_typed (None, n, v) = true) ->
  exists s', apply_ovr target n c (Some s) = Some s' /\
  forall n', overrides_shared n' = true ->
    field s' n' = match lookup (ovr c) (target, n) with Some v => if n' =? n then Some v else field s n' | None => field s n' end.
Proof.
  intros Ho Ht. unfold apply_ovr.
  destruct (lookup (ovr c) (target, n)) as [v|]; [exact (shared_set_field s n v Ho (Ht v eq_refl))|eauto].
Qed.

(* [get_overridden] reads every overriding key through the language's stored override *)
Lemma get_overridden_field c lang :
  (forall n, overrides_shared n = true -> forall v, lookup (ovr c) (lang, n) = Some v -> well_typed (None, n, v) = true) ->
  exists s, get_overridden c lang = Some s /\
  forall n, overrides_shared n = true ->
    field s n = match lookup (ovr c) (lang, n) with Some v => Some v | None => field (sh c) n end.
Proof.
  intros Ht. unfold get_overridden.
  destruct (apply_ovr_field lang "lib_name" c (sh c) eq_refl (Ht "lib_name" eq_refl)) as (s1 & -> & H1).
  destruct (apply_ovr_field lang "unsafe_references_in_callbacks" c s1 eq_refl (Ht "unsafe_references_in_callbacks" eq_refl)) as (s2 & -> & H2).
  exists s2. split; [reflexivity|]. intros n Hn. rewrite H2, H1 by exact Hn.
  destruct (overrides_cases n Hn) as [->| ->]; cbn;
    now destruct (lookup (ovr c) (lang, "unsafe_references_in_callbacks")), (lookup (ovr c) (lang, "lib_name")).
Qed.

(* the documented precedence, for every finite sequence of writes from the three sources and every overriding key *)
Theorem effective_field ws lang :
  known_lang lang = true -> forallb well_typed ws = true ->
  exists c s, run empty ws = Some c /\ get_overridden c lang = Some s /\
    forall n, overrides_shared n = true -> field s n = effective lang n ws.
Proof.
  intros Hk Hw. destruct (run_inv ws empty [] inv_empty Hw) as (c & Hr & HI). cbn [app] in HI.
  destruct (get_overridden_field c lang) as (s & Hs & Hf).
  { (* a stored override is a last write, so it is well typed *)
    intros n Ho v E. apply (last_write_typed (Some lang) n ws v Hw). rewrite <- E. symmetry. apply (HI (Some lang)).
    unfold tracked. rewrite Ho. exact Hk. }
  exists c, s. split; [exact Hr|]. split; [exact Hs|].
  intros n Hn. rewrite Hf by exact Hn. unfold effective.
  rewrite <- (HI (Some lang) n) by (unfold tracked; rewrite Hn; exact Hk).
  rewrite <- (HI None n) by (unfold tracked; rewrite Hn; reflexivity). reflexivity.
Qed.

Theorem effective_correct ws lang :
  known_lang lang = true -> forallb well_typed ws = true ->
  exists c s, run empty ws = Some c /\ get_overridden c lang = Some s /\
    lib_name s = str_of (effective lang "lib_name" ws) /\
    unsafe_refs s = bool_of (effective lang "unsafe_references_in_callbacks" ws).
Proof.
  intros Hk Hw. destruct (effective_field ws lang Hk Hw) as (c & s & Hr & Hg & Hf). exists c, s.
  rewrite <- !Hf by reflexivity. repeat split; auto using eq_sym, str_of_field, bool_of_field.
Qed.

(* a language-scoped key overrides the shared key only for that language *)
Theorem scoped_only_that_language ws l l' n v :
  l <> l' -> effective l' n (ws ++ [(Some l, n, v)]) = effective l' n ws.
Proof.
  intros Hne. unfold effective. rewrite !last_write_snoc. cbn [scope_eqb andb].
  now destruct (String.eqb_spec l' l) as [E|_]; [congruence|].
Qed.

(* the three sources in the documented order: an attribute beats the CLI beats the file, per storage slot *)
Theorem source_order file cli attr sc n :
  last_write sc n (sources file cli attr) =
  match last_write sc n attr with
  | Some v => Some v
  | None => match last_write sc n cli with
            | Some v => Some v
            | None => last_write sc n (map file_write file)
            end
  end.
Proof. unfold sources. rewrite !last_write_app. now destruct (last_write sc n attr), (last_write sc n cli). Qed.

Lemma snake_idem s : snake (snake s) = snake s.
Proof.
  induction s as [|a r IH]; cbn; [reflexivity|]. rewrite IH.
  unfold snake_char. destruct (Ascii.eqb a "-") eqn:E; [reflexivity|]. now rewrite E.
Qed.
(* kebab-case keys in the file mean the same as snake_case keys *)
Theorem kebab_snake_equiv file cli attr :
  sources (map file_write file) cli attr = sources file cli attr.
Proof.
  unfold sources. f_equal. rewrite map_map. apply map_ext. intros [[[sc|] n] v]; cbn; now rewrite !snake_idem.
Qed.
Example kebab_example : snake "unsafe-references-in-callbacks" = "unsafe_references_in_callbacks".
Proof. reflexivity. Qed.

Example effective_example :
  let ws := sources [(None, "lib-name", VS "f"); (Some "kotlin", "lib-name", VS "kf")] [(None, "lib_name", VS "c")] [(None, "lib_name", VS "a")] in
  effective "kotlin" "lib_name" ws = Some (VS "kf") /\ effective "js" "lib_name" ws = Some (VS "a") /\
  observe [(None, "lib-name", VS "f"); (Some "kotlin", "lib-name", VS "kf")] [(None, "lib_name", VS "c")] [(None, "lib_name", VS "a")] "kotlin"
    = Some (mkObs (Some "kf") None None None false (None, None, None, None)).
Proof. repeat split. Qed.
