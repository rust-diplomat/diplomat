(* C15 — After successful lowering no backend crashes (partial: Coq carries the argument that the finite witness
   enumeration covers every shape the gate can accept; absence of panics on each witness is observed by running
   the real backends).  Further down: the docs URL renderer is total, lowered lifetimes stay in range, demo_gen's
   constructor search ends. *)
From Coq Require Import List Bool Arith String.
Import ListNotations.
From DV Require Import Gate.Model Dispatch.Model Dispatch.Proofs gen.Tables Docs.Model Docs.Proofs.

(* whatever the gate accepts as an output / non-callback input / return type is at most 3 constructors deep, i.e. it is
   literally one of the enumerated witnesses (enumeration depth 3 in the thorough tier, depth 2 + pointer options in quick) *)
Theorem C15_outputs_enumerated : forall fl s r t, lot fl s r t = true -> classify t = t.
Proof. exact accepted_outputs_are_classes. Qed.
Print Assumptions C15_outputs_enumerated.

Theorem C15_inputs_enumerated : forall fl s t, lt fl s t = true -> (forall ps r, t <> TFunction ps r) -> classify t = t.
Proof. exact accepted_inputs_are_classes. Qed.
Print Assumptions C15_inputs_enumerated.

Theorem C15_returns_enumerated : forall fl t, lret fl t = true -> classify t = t.
Proof. exact accepted_returns_are_classes. Qed.
Print Assumptions C15_returns_enumerated.

(* the documentation renderer every backend calls (Docs::to_markdown, DocsUrlGenerator::gen_for_rust_link; None = panic)
   never fails, whatever the doc text, link kinds, display styles, path lengths and base-URL settings are: in particular
   the unreachable!() arm for Mod is unreachable. (Paths are non-empty by construction: syn parses no empty path.) *)
Theorem C15_docs_url_total : forall g l, l_path l <> [] -> exists u, gen_url g l = Some u.
Proof. exact gen_url_total. Qed.
Print Assumptions C15_docs_url_total.

Theorem C15_docs_markdown_total : forall g d, (forall l, In l (d_links d) -> l_path l <> []) -> exists s, to_markdown g d = Some s.
Proof. exact to_markdown_total. Qed.
Print Assumptions C15_docs_markdown_total.

(* the statement was false of the generator as it stood before fix 06b6163 (witness: rust_link(Foo, FnInStruct)) ... *)
Theorem C15_docs_url_unrepaired_refuted : exists g l, l_path l <> [] /\ gen_url_unrepaired g l = None.
Proof. exact unrepaired_refuted. Qed.
Print Assumptions C15_docs_url_unrepaired_refuted.

(* ... and the repair leaves every link for which the old generator produced a URL exactly as it was *)
Theorem C15_docs_repair_is_conservative : forall g l u, gen_url_unrepaired g l = Some u -> gen_url g l = Some u.
Proof. exact repair_is_conservative. Qed.
Print Assumptions C15_docs_repair_is_conservative.

(* what a link is, on the split path crate :: modules ++ item :: members *)
Theorem C15_docs_url_shape : forall g t disp c mods item ms pre,
  page_prefix t = Some pre -> List.length (item :: ms) = need t ->
  gen_url g (mkLink (c :: mods ++ item :: ms)%list t disp) =
    Some (root g c ++ dirs (c :: mods) ++ pre ++ item ++ ".html" ++ members_part t ms)%string.
Proof. exact gen_url_shape. Qed.
Print Assumptions C15_docs_url_shape.

(* every lifetime lowering hands to the backends for a method (self, parameters, output) is 'static or an index below
   LifetimeEnv::num_lifetimes: LifetimeEnv::fmt_lifetime cannot reach its "Found out of range lifetime" panic on a
   lifetime of the method's own signature, however lifetimes are written, elided or hidden (Lifetimes/Elision.v) *)
(* from here on [classify], [ty] and [lt] are those of Lifetimes, no longer Dispatch.Model's and Gate.Model's: theorems
   about shape classes go above *)
From Coq Require Import Arith.
From DV Require Import gen.Tables Lifetimes.Model Lifetimes.Elision Lifetimes.ElisionProofs.
Theorem C15_lowered_lifetimes_in_range : forall g m k,
  ssig_ok g -> lower_sig g = Some (m, k) ->
  s_n g <= k /\ Forall (below k) (flat_map ty_lts (m_params m ++ m_ret m)).
Proof. exact lowered_lifetimes_in_range. Qed.
Print Assumptions C15_lowered_lifetimes_in_range.

(* demo_gen's search for constructor calls (Dispatch/Ctor.v) always ends, whatever the constructors of the opaque types need
   (number of types + 1 levels suffice); before its repair (c6b6c41) it did not end for a constructor that needs its own type *)
From DV Require Import Dispatch.Ctor.
Theorem C15_demo_constructor_search_terminates : forall e n t,
  ctab_ok e n -> t < n -> construct e (S n) [] t <> None.
Proof. exact construct_terminates. Qed.
Print Assumptions C15_demo_constructor_search_terminates.

Theorem C15_demo_constructor_search_unrepaired_diverges : forall fuel, construct_unrepaired [Some [0]] fuel 0 = None.
Proof. exact unrepaired_diverges. Qed.
Print Assumptions C15_demo_constructor_search_unrepaired_diverges.
