(* C05 — The lowering gate accepts exactly the documented FFI-safe API shapes. *)
From Coq Require Import List Bool.
Import ListNotations.
From DV Require Import Gate.Model Gate.Spec Gate.Proofs.

(* the gate's input arm accepts exactly what the rules allow in inputs (all types, unbounded nesting, all flag settings) *)
Theorem C05_inputs : forall fl t s, lt fl s t = true <-> InOk fl s t.
Proof. exact lt_iff. Qed.
Print Assumptions C05_inputs.

(* outputs (return payloads, out-struct fields, callback parameters) *)
Theorem C05_outputs : forall fl s r t, lot fl s r t = true <-> OutOk fl s r t.
Proof. exact lot_iff. Qed.
Print Assumptions C05_outputs.

(* return types: Result only at the top level, Option of a pointer is a nullable pointer *)
Theorem C05_returns : forall fl t, lret fl t = true <-> RetOk fl t.
Proof. exact lret_iff. Qed.
Print Assumptions C05_returns.

(* callback parameters: outputs, and no references unless explicitly allowed *)
Theorem C05_callback_params : forall fl t, cb_param_ok fl t = true <-> CbParamOk fl t.
Proof. exact cb_param_ok_iff. Qed.
Print Assumptions C05_callback_params.

(* DiplomatWrite only as the last parameter *)
Theorem C05_write_only_last : forall fl ps,
  accept_params fl (ps ++ [TWrite]) = forallb (lt fl false) ps /\
  (forall a b, accept_params fl (a ++ TWrite :: b ++ [TPrim]) = false).
Proof. exact write_only_last. Qed.
Print Assumptions C05_write_only_last.

(* "no elided lifetimes in return types" (rule 9): an elided lifetime of the return type whose source is itself not a
   named lifetime (`fn f(&self) -> &T`, `fn f(x: &T) -> &T`) makes validation refuse the method, whatever else the
   signature contains (Lifetimes/Elision.v models core/src/hir/elision.rs, Lifetimes/Model.v the validation) *)
(* from here on [lt] and [ty] are Lifetimes.Model's, no longer Gate.Model's: theorems about the gate go above *)
From Coq Require Import Arith.
From DV Require Import gen.Tables Lifetimes.Model Lifetimes.Elision Lifetimes.ElisionProofs.
Theorem C05_elided_return_rejected : forall g i m k ds,
  (elision_source g = SelfParam (Lt i) \/ elision_source g = OneParam (Lt i)) -> s_n g <= i ->
  ret_elided (s_ret g) = true -> lower_sig g = Some (m, k) -> validate_method ds m = false.
Proof. exact elided_return_of_anonymous_source_rejected. Qed.
Print Assumptions C05_elided_return_rejected.
