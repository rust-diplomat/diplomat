(* C09 — Whatever the tool accepts builds (partial: "compiles" is decided by the real compilers on generated
   corpora; Coq carries the include-once / declared-before-use bookkeeping of the C headers).  Further down: identifier
   escaping, the C++ headers (complete before use), the C++ include guards. *)
From Coq Require Import List Arith Bool.
Import ListNotations.
From DV Require Import Headers.Model Headers.Proofs.

(* the declared-before-use check composes over concatenated header text *)
Theorem C09_check_composes : forall d a b, ok_from d (a ++ b) = ok_from d a && ok_from (rev (decls a) ++ d) b.
Proof. exact ok_from_app. Qed.
Print Assumptions C09_check_composes.

(* a block of prototypes is fine once every type it mentions has been declared *)
Theorem C09_uses_after_decls_ok : forall d refs, (forall x, In x refs -> In x d) -> ok_from d (map Use refs) = true.
Proof. exact uses_after_decls_ok. Qed.
Print Assumptions C09_uses_after_decls_ok.

(* the general statement: include-once expansion of any type's header declares every type before it is used, for every
   set of definitions whose by-value containment has bounded depth (rustc guarantees it is acyclic), whatever the pointer
   and method-signature references between the types look like, cycles included *)
Theorem C09_headers_declare_before_use : forall e f t,
  (forall x, depth_le e f x = true) -> declared_before_use (expand_h e (S f) t) = true.
Proof. exact headers_declare_before_use. Qed.
Print Assumptions C09_headers_declare_before_use.

(* ---------- identifier escaping (keyword-named parameters and methods), for the keyword tables the code has now ---------- *)
(* from here on [mem] is Escape.Model's (over strings), no longer Headers.Model's: header theorems go above or below
   with [Headers.Model.mem] *)
From Coq Require Import String.
From DV Require Import gen.Tables Escape.Model Escape.Proofs.
Local Open Scope string_scope.

(* an escaped name is never a keyword of the target language: C, C++, JS (strict mode), Python *)
Theorem C09_escaped_is_not_a_keyword : forall name,
  mem (c_ident name) c_keywords = false /\ mem (cpp_ident name) cpp_keywords = false /\
  mem (js_ident name) js_reserved = false /\ mem (py_ident name) py_keywords = false.
Proof. exact escaped_is_not_a_keyword. Qed.
Print Assumptions C09_escaped_is_not_a_keyword.

(* every C keyword is escaped in C++ headers too *)
Theorem C09_cpp_table_extends_c : forall k, mem k c_keywords = true -> mem k cpp_keywords = true.
Proof. exact cpp_extends_c. Qed.
Print Assumptions C09_cpp_table_extends_c.

(* two different names come out equal only for a keyword k and the name "k_" — exactly the class of the recorded
   finding (`int` / `int_`), for any keyword table *)
Theorem C09_escape_collisions_are_the_recorded_class : forall kw a b, a <> b ->
  (escape kw a = escape kw b <->
   (mem a kw = true /\ mem b kw = false /\ b = a ++ "_") \/ (mem b kw = true /\ mem a kw = false /\ a = b ++ "_")).
Proof. exact escape_collision_iff. Qed.
Print Assumptions C09_escape_collisions_are_the_recorded_class.

Theorem C09_escape_injective_refuted : c_ident "int" = c_ident "int_" /\ "int" <> "int_".
Proof. exact c_collision_witness. Qed.
Print Assumptions C09_escape_injective_refuted.

(* ---------- C++ headers (Headers/Cpp.v): T.hpp = T.d.hpp, then X.hpp for every other type mentioned, then inline bodies ---------- *)
From DV Require Import Headers.Cpp Headers.CppProofs.

(* in the include-once expansion of any T.hpp every class is defined before a by-value field or an inline method body needs
   it complete: any set of types with acyclic by-value containment, any pointer / signature references, cycles between impl
   headers included (the flag says the expansion did not run out of fuel) *)
Theorem C09_cpp_complete_before_body : forall e fd fuel t,
  (forall x, depth_le e fd x = true) ->
  snd (hpp_events e (S fd) fuel t) = true -> declared_before_use (fst (hpp_events e (S fd) fuel t)) = true.
Proof. exact cpp_complete_before_body. Qed.
Print Assumptions C09_cpp_complete_before_body.

(* and the decl header forward-declares every name its method declarations mention *)
Theorem C09_cpp_decl_names_declared : forall e t, decl_names_ok e t = true.
Proof. exact cpp_decl_names_declared. Qed.
Print Assumptions C09_cpp_decl_names_declared.

(* ... and the fuel never runs out: with every mentioned type below n, n + 1 levels of includes suffice *)
Theorem C09_cpp_complete_before_body_total : forall e fd n t,
  (forall x, depth_le e fd x = true) -> wf_env e n -> t < n ->
  declared_before_use (fst (hpp_events e (S fd) (S n) t)) = true.
Proof. exact cpp_complete_before_body_total. Qed.
Print Assumptions C09_cpp_complete_before_body_total.

(* ---------- include guards of the C++ headers (Headers/Guard.v): the path with '/' turned into '_', plus a suffix ---------- *)
From DV Require Import Headers.Guard.
(* when no namespace or type name contains an underscore, two different header paths never share a guard ... *)
Theorem C09_cpp_guard_injective_on_clean_names : forall (A : Type) (sep : A) r c d s decl decl',
  clean A sep c -> clean A sep d -> Forall (clean A sep) r -> Forall (clean A sep) s ->
  guard A sep c r decl = guard A sep d s decl' -> c = d /\ r = s /\ decl = decl'.
Proof. exact guard_injective_on_clean_names. Qed.
Print Assumptions C09_cpp_guard_injective_on_clean_names.

(* ... and otherwise they can: namespace `geo` + type `Point` and the root type `geo_Point` (recorded finding) *)
Theorem C09_cpp_guard_injective_refuted :
  guard nat 0 [7; 5; 15] [[16; 15; 9; 14; 20]] true = guard nat 0 [7; 5; 15; 0; 16; 15; 9; 14; 20] [] true /\
  ([7; 5; 15], [[16; 15; 9; 14; 20]]) <> ([7; 5; 15; 0; 16; 15; 9; 14; 20], @nil (list nat)).
Proof. exact guard_injective_refuted. Qed.
Print Assumptions C09_cpp_guard_injective_refuted.
