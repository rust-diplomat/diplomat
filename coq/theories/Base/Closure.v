(* Reflexive-transitive closures (clos_refl_trans_1n) of arbitrary relations: what the standard library leaves out. *)
From Coq Require Import Relations.

Section Closure.
  Context {A : Type}.
  Implicit Types (R S : A -> A -> Prop) (P : A -> Prop).

  Lemma clos_rt1n_trans R a b c :
    clos_refl_trans_1n A R a b -> clos_refl_trans_1n A R b c -> clos_refl_trans_1n A R a c.
  Proof. induction 1; eauto using clos_refl_trans_1n. Qed.

  (* a set closed under R-steps is closed under chains of them *)
  Lemma clos_rt1n_inv R P : (forall x y, P x -> R x y -> P y) ->
    forall a b, clos_refl_trans_1n A R a b -> P a -> P b.
  Proof. intros H a b Hab. induction Hab; eauto. Qed.

  (* if, where P holds, an R-step keeps P and is a chain of S-steps, then from P so is a chain of R-steps *)
  Lemma clos_rt1n_sub_inv R S P : (forall x y, P x -> R x y -> P y /\ clos_refl_trans_1n A S x y) ->
    forall a b, clos_refl_trans_1n A R a b -> P a -> clos_refl_trans_1n A S a b.
  Proof.
    intros H a b Hab. induction Hab as [|a b c Hab _ IH]; intros Ha; [constructor|].
    destruct (H a b Ha Hab). eauto using clos_rt1n_trans.
  Qed.

  Lemma clos_rt1n_sub R S : (forall x y, R x y -> clos_refl_trans_1n A S x y) ->
    forall a b, clos_refl_trans_1n A R a b -> clos_refl_trans_1n A S a b.
  Proof. intros H a b Hab. apply (clos_rt1n_sub_inv R S (fun _ => True)); auto. Qed.

  Lemma clos_rt1n_mono R S : (forall x y, R x y -> S x y) ->
    forall a b, clos_refl_trans_1n A R a b -> clos_refl_trans_1n A S a b.
  Proof. intros H. apply clos_rt1n_sub. intros x y Hxy. apply clos_rt1n_step, H, Hxy. Qed.

  Lemma clos_rt1n_iff R S : (forall x y, R x y <-> S x y) ->
    forall a b, clos_refl_trans_1n A R a b <-> clos_refl_trans_1n A S a b.
  Proof. intros H a b. split; apply clos_rt1n_mono; intros x y; apply H. Qed.
End Closure.
