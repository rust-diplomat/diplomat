(* General facts about lists that the standard library (8.16) lacks, and two about strings; [missing] is the measure of
   the visited-set searches. *)
From Coq Require Import List Arith Lia.
From Coq Require String.

Lemma In_firstn {A} (x : A) n l : In x (firstn n l) -> In x l.
Proof. intros H. rewrite <- (firstn_skipn n l). apply in_or_app. now left. Qed.

Lemma skipn_skipn {A} (x y : nat) (l : list A) : skipn x (skipn y l) = skipn (y + x) l.
Proof.
  revert l. induction y as [|y IH]; intros l; [reflexivity|].
  destruct l as [|a l]; cbn [skipn plus]; [now rewrite skipn_nil|apply IH].
Qed.

Lemma NoDup_app_remove_r {A} (l l' : list A) : NoDup (l ++ l') -> NoDup l.
Proof.
  induction l as [|a l IH]; cbn; intros H; [constructor|].
  inversion H as [|? ? Hn Hd]; subst. rewrite in_app_iff in Hn. constructor; auto.
Qed.

Lemma combine_app {A B} (l1 l1' : list A) (l2 l2' : list B) :
  length l1 = length l2 -> combine (l1 ++ l1') (l2 ++ l2') = combine l1 l2 ++ combine l1' l2'.
Proof.
  revert l2. induction l1 as [|a l1 IH]; intros [|b l2] H; cbn in *; try discriminate; [reflexivity|].
  f_equal. apply IH. now inversion H.
Qed.

Lemma forallb_rev {A} (f : A -> bool) l : forallb f (rev l) = forallb f l.
Proof.
  induction l as [|a l IH]; [reflexivity|]. cbn [rev forallb]. rewrite forallb_app, IH. cbn [forallb].
  now rewrite Bool.andb_true_r, Bool.andb_comm.
Qed.

Lemma forallb_Forall {A} (f : A -> bool) (P : A -> Prop) l :
  (forall x, f x = true <-> P x) -> forallb f l = true <-> Forall P l.
Proof. intros H. rewrite forallb_forall, Forall_forall. split; intros G x Hx; apply H, G, Hx. Qed.

Lemma existsb_eqb_In {A} (eqb : A -> A -> bool) x l :
  (forall a b, eqb a b = true <-> a = b) -> existsb (eqb x) l = true <-> In x l.
Proof.
  intros eqb_eq. rewrite existsb_exists. split; [intros (y & Hy & E); apply eqb_eq in E; now subst|].
  intros H. exists x. split; [exact H|now apply eqb_eq].
Qed.

Lemma nth_error_skipn {A} n : forall (l : list A) k, nth_error (skipn n l) k = nth_error l (n + k).
Proof. induction n as [|n IH]; intros [|x l] k; cbn [skipn Nat.add nth_error]; try apply IH; now destruct k. Qed.

Lemma nth_error_firstn {A} n : forall (l : list A) k,
  nth_error (firstn n l) k = if k <? n then nth_error l k else None.
Proof.
  induction n as [|n IH]; intros [|x l] [|k]; cbn [firstn nth_error]; try reflexivity; [now destruct (_ <? _)|apply IH].
Qed.

Lemma nth_error_ext {A} (a b : list A) : (forall k, nth_error a k = nth_error b k) -> a = b.
Proof.
  revert b. induction a as [|x a IH]; intros [|y b] H; try reflexivity; try discriminate (H 0).
  pose proof (H 0) as [= ->]. f_equal. apply IH. intros k. exact (H (S k)).
Qed.

Lemma firstn_app_le {A} n (l r : list A) : n <= length l -> firstn n (l ++ r) = firstn n l.
Proof. intros H. rewrite firstn_app. replace (n - length l) with 0 by lia. apply app_nil_r. Qed.

Lemma firstn_firstn_app {A} n a (m r : list A) : n <= a -> a <= length m -> firstn n (firstn a m ++ r) = firstn n m.
Proof. intros Hn Ha. rewrite firstn_app_le, firstn_firstn by (rewrite firstn_length; lia). f_equal. lia. Qed.

Lemma firstn_app_all {A} n (l r : list A) : n = length l -> firstn n (l ++ r) = l.
Proof. intros ->. now rewrite firstn_app_le, firstn_all. Qed.

Lemma skipn_app_ge {A} n (l r : list A) : length l <= n -> skipn n (l ++ r) = skipn (n - length l) r.
Proof. intros H. rewrite skipn_app, skipn_all2 by exact H. reflexivity. Qed.

Lemma map_nth_seq {A} (l : list A) d : map (fun i => nth i l d) (seq 0 (length l)) = l.
Proof. induction l as [|a l IH]; [reflexivity|]. cbn [length seq map nth]. now rewrite <- seq_shift, map_map, IH. Qed.

Lemma nth_error_seq k n i : i < n -> nth_error (seq k n) i = Some (k + i).
Proof. intros H. rewrite <- (seq_nth k 0 H). apply nth_error_nth'. now rewrite seq_length. Qed.

Lemma In_combine {A B} (l : list A) (l' : list B) a b :
  In (a, b) (combine l l') <-> exists i, nth_error l i = Some a /\ nth_error l' i = Some b.
Proof.
  revert l'. induction l as [|x l IH]; intros [|y l']; cbn [combine In];
    try (split; [intros []|intros [[|i] [H1 H2]]; discriminate]).
  rewrite IH. split.
  - intros [H|[i H]]; [exists 0; now inversion H|now exists (S i)].
  - intros [[|i] [H1 H2]]; [left; cbn in H1, H2; congruence|right; now exists i].
Qed.

(* membership in a flat_map over a list paired with its positions, as the model writes its indexed traversals *)
Lemma in_flat_map_seq {A B} (f : nat * A -> list B) l y :
  In y (flat_map f (combine (seq 0 (length l)) l)) <-> exists i x, nth_error l i = Some x /\ In y (f (i, x)).
Proof.
  rewrite in_flat_map. split.
  - intros ([i x] & (k & H1 & H2)%In_combine & Hy). exists i, x. split; [|exact Hy].
    rewrite nth_error_seq in H1 by (apply nth_error_Some; congruence). now injection H1 as <-.
  - intros (i & x & H & Hy). exists (i, x). split; [|exact Hy]. apply In_combine. exists i. split; [|exact H].
    apply nth_error_seq, nth_error_Some. congruence.
Qed.

Lemma flat_map_map {A B C} (f : B -> list C) (g : A -> B) l : flat_map f (map g l) = flat_map (fun a => f (g a)) l.
Proof. induction l as [|a r IH]; cbn; congruence. Qed.

Lemma map_eq_nth_error {A B} (f : A -> B) l l' p a :
  map f l = map f l' -> nth_error l p = Some a -> exists a', nth_error l' p = Some a' /\ f a' = f a.
Proof.
  intros E H. apply (map_nth_error f) in H. rewrite E, nth_error_map in H.
  destruct (nth_error l' p) as [a'|]; [|discriminate]. injection H. eauto.
Qed.

Lemma filter_length_le {A} (f : A -> bool) l : length (filter f l) <= length l.
Proof. induction l as [|y r IH]; cbn [filter]; [lia|]. destruct (f y); cbn [length]; lia. Qed.

Lemma filter_length_mono {A} (f g : A -> bool) l :
  (forall x, f x = true -> g x = true) -> length (filter f l) <= length (filter g l).
Proof.
  intros H. induction l as [|y r IH]; cbn [filter]; [lia|]. pose proof (H y) as Hy.
  destruct (f y); [rewrite Hy by reflexivity|destruct (g y)]; cbn [length]; lia.
Qed.

Lemma filter_length_lt {A} (f g : A -> bool) l t :
  (forall x, f x = true -> g x = true) -> In t l -> f t = false -> g t = true ->
  length (filter f l) < length (filter g l).
Proof.
  (* split l at t: filter_length_mono on either side, and t itself counts on the right only *)
  intros H (l1 & l2 & ->)%in_split Hf Hg. rewrite !filter_app, !app_length. cbn [filter]. rewrite Hf, Hg. cbn [length].
  pose proof (filter_length_mono f g l1 H). pose proof (filter_length_mono f g l2 H). lia.
Qed.

(* how many of the numbers below n a visited set has not reached: what a search that only descends into unvisited nodes
   can still spend.  Membership is written [existsb (Nat.eqb x) sh], which is what [Headers.Model.mem x sh] unfolds to, so
   a caller passes its [mem t sh = false] to [missing_cons_lt] as it is. *)
Definition missing (n : nat) (sh : list nat) : nat := length (filter (fun x => negb (existsb (Nat.eqb x) sh)) (seq 0 n)).

Lemma missing_le n sh : missing n sh <= n.
Proof. unfold missing. rewrite <- (seq_length n 0) at 2. apply filter_length_le. Qed.

Lemma missing_mono n a b : incl a b -> missing n b <= missing n a.
Proof.
  intros H. apply filter_length_mono. intros x. rewrite !Bool.negb_true_iff, <- !Bool.not_true_iff_false, !(existsb_eqb_In _ _ _ Nat.eqb_eq). auto.
Qed.

Lemma missing_cons_lt n t sh : t < n -> existsb (Nat.eqb t) sh = false -> missing n (t :: sh) < missing n sh.
Proof.
  intros Ht Hn. apply (filter_length_lt _ _ _ t).
  - (* what t :: sh has not reached, sh has not reached *) intros x. cbn [existsb]. now destruct (x =? t).
  - (* t is one of the numbers below n *) apply in_seq. lia.
  - (* t :: sh has reached t *) cbn [existsb]. now rewrite Nat.eqb_refl.
  - (* sh has not *) now rewrite Hn.
Qed.

Lemma fold_left_map {A B C} (f : A -> B -> A) (h : C -> B) (l : list C) (a : A) :
  fold_left f (map h l) a = fold_left (fun a x => f a (h x)) l a.
Proof. revert a. induction l as [|x l IH]; intros a; [reflexivity|apply IH]. Qed.

Lemma fold_left_inv {A B} (P : A -> Prop) (f : A -> B -> A) l :
  (forall a x, In x l -> P a -> P (f a x)) -> forall a r, fold_left f l a = r -> P a -> P r.
Proof.
  induction l as [|x l IH]; cbn; intros H a r E Pa; [now subst|].
  apply (IH (fun b y Hy => H b y (or_intror Hy)) _ _ E), H; auto.
Qed.

Lemma fold_left_max_ge {A} (f : A -> nat) l : forall a,
  a <= fold_left (fun a y => Nat.max a (f y)) l a /\ forall x, In x l -> f x <= fold_left (fun a y => Nat.max a (f y)) l a.
Proof.
  induction l as [|y l IH]; intros a; cbn; [easy|]. destruct (IH (Nat.max a (f y))) as [G H].
  split; [lia|]. intros x [->|Hx]; [lia|auto].
Qed.

Lemma fold_right_max_le {A} (h : A -> nat) b l d :
  fold_right (fun p acc => Nat.max (h p) acc) b l <= d -> b <= d /\ forall p, In p l -> h p <= d.
Proof.
  induction l as [|p l IH]; cbn; [intuition|]. intros H. destruct IH as [Hb Hl]; [lia|].
  split; [exact Hb|]. intros q [<-|Hq]; [lia|auto].
Qed.

(* marking one element of a duplicate-free list lowers the weight of the unmarked ones by that element's weight *)
Lemma list_sum_mark (w : nat -> nat) (v v' : nat -> bool) x l :
  NoDup l -> v x = false -> v' x = true -> (forall i, i <> x -> v' i = v i) ->
  list_sum (map (fun i => if v' i then 0 else w i) l) + (if existsb (Nat.eqb x) l then w x else 0)
  = list_sum (map (fun i => if v i then 0 else w i) l).
Proof.
  intros Hl Hx Hx' Hv. induction Hl as [|y l Hy _ IH]; [reflexivity|]. cbn [map existsb]. simpl list_sum.
  destruct (Nat.eqb_spec x y) as [<-|Hne]; cbn [orb]; [|rewrite (Hv y) by congruence; lia].
  rewrite Hx, Hx'. destruct (existsb _ l) eqn:E; [|lia].
  apply existsb_exists in E as (z & Hz & ->%Nat.eqb_eq). contradiction.
Qed.

Lemma append_nil_r s : String.append s String.EmptyString = s.
Proof. induction s as [|c s IH]; cbn; [reflexivity|now rewrite IH]. Qed.

Lemma length_append a b : String.length (String.append a b) = String.length a + String.length b.
Proof. induction a as [|c a IH]; cbn; [reflexivity|now rewrite IH]. Qed.
