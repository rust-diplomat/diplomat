(* C09 — facts about identifier escaping (Escape/Model.v), re-checked against the regenerated keyword tables. *)
From Coq Require Import List String Ascii Bool Lia.
Import ListNotations.
From DV Require Import Base.Lists gen.Tables Escape.Model.
Local Open Scope string_scope.

Lemma mem_In x l : mem x l = true <-> In x l.
Proof. apply existsb_eqb_In, String.eqb_eq. Qed.

Lemma escape_never_keyword kw name : suffix_free kw = true -> mem (escape kw name) kw = false.
Proof.
  intros S. unfold escape. destruct (mem name kw) eqn:E; [|exact E].
  apply negb_true_iff. apply (proj1 (forallb_forall _ _) S). now apply mem_In.
Qed.

Lemma escape_non_keyword kw name : mem name kw = false -> escape kw name = name.
Proof. intros E. unfold escape. rewrite E. auto. Qed.

(* [Some k] when s = k ++ "_" *)
Fixpoint strip_us (s : string) : option string :=
  match s with
  | "" => None
  | String c "" => if Ascii.eqb c "_"%char then Some "" else None
  | String c r => option_map (String c) (strip_us r)
  end.

Lemma strip_us_app k : strip_us (k ++ "_") = Some k.
Proof.
  induction k as [|c k IH]; [reflexivity|]. cbn [append strip_us]. rewrite IH. now destruct k.
Qed.

(* k ++ "_" can only be a keyword that ends in an underscore, so one pass over the table is enough *)
Lemma suffix_free_by_strip kw :
  forallb (fun s => match strip_us s with Some k => negb (mem k kw) | None => true end) kw = true ->
  suffix_free kw = true.
Proof.
  unfold suffix_free. rewrite !forallb_forall. intros H k Hk.
  destruct (mem (k ++ "_") kw) eqn:E; [|reflexivity].
  apply mem_In, H in E. rewrite strip_us_app in E. apply mem_In in Hk. now rewrite Hk in E.
Qed.

Lemma tables_suffix_free :
  suffix_free c_keywords = true /\ suffix_free cpp_keywords = true /\ suffix_free js_reserved = true /\ suffix_free py_keywords = true.
Proof. repeat apply conj; apply suffix_free_by_strip; vm_compute; reflexivity. Qed.

Lemma escaped_is_not_a_keyword name :
  mem (c_ident name) c_keywords = false /\ mem (cpp_ident name) cpp_keywords = false /\
  mem (js_ident name) js_reserved = false /\ mem (py_ident name) py_keywords = false.
Proof.
  destruct tables_suffix_free as [A [B [C D]]].
  repeat split; apply escape_never_keyword; assumption.
Qed.

Lemma cpp_extends_c k : mem k c_keywords = true -> mem k cpp_keywords = true.
Proof. rewrite !mem_In. unfold cpp_keywords. rewrite in_app_iff. auto. Qed.

Lemma append_inj_r c : forall a b, a ++ c = b ++ c -> a = b.
Proof.
  assert (L : forall y b, c <> String y (b ++ c)).
  { intros y b H%(f_equal String.length). cbn in H. rewrite length_append in H. lia. }
  induction a as [|x a IH]; intros [|y b] H; cbn in H.
  - reflexivity.
  - now apply L in H.
  - symmetry in H. now apply L in H.
  - injection H as -> H. f_equal. auto.
Qed.

(* escaping is injective except on a keyword k and the name "k_": the only way two different parameter names of one
   method can come out equal (the recorded finding `int` / `int_`) *)
Lemma escape_collision_iff kw a b : a <> b ->
  (escape kw a = escape kw b <->
   (mem a kw = true /\ mem b kw = false /\ b = a ++ "_") \/ (mem b kw = true /\ mem a kw = false /\ a = b ++ "_")).
Proof.
  intros N. unfold escape.
  destruct (mem a kw), (mem b kw); split; try (intros [(F & G & H)|(F & G & H)]; congruence); intros H.
  - (* both escaped *) now apply append_inj_r in H.
  - (* only a *) auto.
  - (* only b *) auto.
  - (* neither *) contradiction.
Qed.

(* the recorded finding is an instance, for the tables the code has now *)
Lemma c_collision_witness : c_ident "int" = c_ident "int_" /\ "int" <> "int_".
Proof. split; [vm_compute; reflexivity|discriminate]. Qed.
