From Coq Require Import List Arith Lia Sorted.
Import ListNotations.
From DV Require Import Base.Lists Collect.Model.

Lemma lookup_insert {V} k (v : V) k2 m : lookup k2 (insert k v m) = if k2 =? k then Some v else lookup k2 m.
Proof.
  induction m as [|[k' v'] r IH]; cbn [insert lookup]; [reflexivity|].
  destruct (k <? k'); [reflexivity|].
  destruct (Nat.eqb_spec k k') as [->|]; cbn [lookup]; [now destruct (k2 =? k')|].
  rewrite IH. destruct (Nat.eqb_spec k2 k'), (Nat.eqb_spec k2 k); congruence.
Qed.

Lemma step_lookup m it n :
  lookup n (step m it) =
  match it with
  | TypeDecl n' => if n =? n' then Some (match lookup n m with Some ms => ms | None => [] end) else lookup n m
  | ImplBlock n' ms => if n =? n' then Some ((match lookup n m with Some old => old | None => [] end) ++ ms) else lookup n m
  | Other _ => lookup n m
  end.
Proof.
  destruct it as [n'|n' ms|t]; cbn [step]; [| |reflexivity].
  (* a declaration and an impl block alike: whether or not n' has an entry, push the lookup of n through the
     insert and split on n = n' *)
  all: destruct (lookup n' m) eqn:E; rewrite ?lookup_insert; destruct (Nat.eqb_spec n n') as [->|]; now rewrite ?E.
Qed.

Lemma collect_lookup_gen items : forall m n,
  lookup n (fold_left step items m) =
  match lookup n m with
  | Some old => Some (old ++ methods_of n items)
  | None => if existsb (Nat.eqb n) (names_of items) then Some (methods_of n items) else None
  end.
Proof.
  unfold methods_of, names_of. induction items as [|it r IH]; intros m n; cbn [fold_left flat_map existsb].
  - destruct (lookup n m); [now rewrite app_nil_r|reflexivity].
  - rewrite IH, step_lookup.
    destruct it as [n'|n' ms|t]; cbn [app existsb]; [| |reflexivity];
      destruct (n =? n'), (lookup n m); cbn [orb app]; now rewrite ?app_assoc.
Qed.

(* the map after reading a module: every named type has exactly the methods of its impl blocks, in source order *)
Theorem collect_lookup items n :
  lookup n (collect items) = if existsb (Nat.eqb n) (names_of items) then Some (methods_of n items) else None.
Proof. exact (collect_lookup_gen items [] n). Qed.

Definition key_lt {V} (a b : nat * V) : Prop := fst a < fst b.

Lemma insert_Forall {V} (P : nat * V -> Prop) k v m : P (k, v) -> Forall P m -> Forall P (insert k v m).
Proof.
  intros Hk. induction 1 as [|[a b] r Ha Hr IH]; cbn [insert]; [auto|].
  destruct (k <? a); [auto|]. destruct (k =? a); auto.
Qed.

Lemma insert_sorted {V} k (v : V) m : StronglySorted key_lt m -> StronglySorted key_lt (insert k v m).
Proof.
  induction 1 as [|[a b] r Hs IH Hlt]; cbn [insert]; [repeat constructor|].
  destruct (Nat.ltb_spec k a) as [L|L].
  - repeat constructor; [assumption..|]. eapply Forall_impl; [|exact Hlt]. unfold key_lt. cbn. lia.
  - destruct (Nat.eqb_spec k a) as [->|E]; constructor; auto.
    apply insert_Forall; [|assumption]. unfold key_lt. cbn. lia.
Qed.

Lemma step_sorted m it : StronglySorted key_lt m -> StronglySorted key_lt (step m it).
Proof. destruct it as [n|n ms|t]; cbn [step]; [destruct (lookup n m)..|]; auto using insert_sorted. Qed.

(* the map is strictly key-sorted, whatever the order of the items *)
Theorem collect_sorted items : StronglySorted key_lt (collect items).
Proof. apply (fold_left_inv _ step items (fun m it _ => step_sorted m it) [] _ eq_refl). constructor. Qed.

Lemma lookup_below {V} (e : nat * V) m k : Forall (key_lt e) m -> k <= fst e -> lookup k m = None.
Proof.
  induction 1 as [|[a b] r Ha _ IH]; intros Hk; cbn [lookup]; [reflexivity|].
  unfold key_lt in Ha. cbn in Ha. destruct (Nat.eqb_spec k a); [lia|auto].
Qed.

Lemma sorted_ext {V} (m1 m2 : list (nat * V)) :
  StronglySorted key_lt m1 -> StronglySorted key_lt m2 -> (forall k, lookup k m1 = lookup k m2) -> m1 = m2.
Proof.
  intros S1. revert m2. induction S1 as [|[a b] r _ IH L1]; intros m2 [|[c d] r2 S2 L2] H.
  - reflexivity.
  - specialize (H c). cbn in H. rewrite Nat.eqb_refl in H. discriminate.
  - specialize (H a). cbn in H. rewrite Nat.eqb_refl in H. discriminate.
  - pose proof (H a) as Ha. pose proof (H c) as Hc. cbn [lookup] in Ha, Hc. rewrite Nat.eqb_refl in Ha, Hc.
    destruct (Nat.eqb_spec a c) as [<-|N].
    + (* the same head key: the same value, and below it the tails agree because neither has an entry at the head key *)
      injection Ha as <-. f_equal. apply IH; [assumption|]. intros k. specialize (H k). cbn [lookup] in H.
      destruct (Nat.eqb_spec k a) as [E|]; [subst k|assumption]. now rewrite (lookup_below _ _ a L1), (lookup_below _ _ a L2).
    + (* the smaller of two different head keys would be missing from the other map *)
      destruct (Nat.eqb_spec c a); [congruence|]. destruct (Nat.lt_ge_cases a c).
      * rewrite (lookup_below _ _ a L2) in Ha by (cbn; lia). discriminate.
      * rewrite (lookup_below _ _ c L1) in Hc by (cbn; lia). discriminate.
Qed.

(* order independence: any reordering of the items that keeps, for every type, its impl blocks in the same
   relative order (and declares the same names) collects to the same map *)
Theorem collect_order_independent items items' :
  (forall n, existsb (Nat.eqb n) (names_of items) = existsb (Nat.eqb n) (names_of items')) ->
  (forall n, methods_of n items = methods_of n items') ->
  collect items = collect items'.
Proof.
  intros Hn Hm. apply sorted_ext; try apply collect_sorted.
  intros k. now rewrite !collect_lookup, Hn, Hm.
Qed.

(* items the reader ignores have no influence *)
Theorem others_ignored l1 t l2 : collect (l1 ++ Other t :: l2) = collect (l1 ++ l2).
Proof. unfold collect. now rewrite !fold_left_app. Qed.

Definition keep (n : nat) (it : item) : bool :=
  match it with TypeDecl x | ImplBlock x _ => negb (x =? n) | Other _ => true end.

Lemma names_keep n k l : k <> n ->
  existsb (Nat.eqb k) (names_of (filter (keep n) l)) = existsb (Nat.eqb k) (names_of l).
Proof.
  intros Hne. unfold names_of. induction l as [|[x|x ms|t] r IH]; cbn [filter keep]; [reflexivity| | |exact IH].
  (* a declaration and an impl block alike: if kept, the same name heads both sides; if dropped, the name is n, not k *)
  all: destruct (Nat.eqb_spec x n) as [->|]; cbn [negb flat_map app existsb]; rewrite IH; [|reflexivity].
  all: now destruct (Nat.eqb_spec k n).
Qed.

Lemma methods_keep n k l : k <> n -> methods_of k (filter (keep n) l) = methods_of k l.
Proof.
  intros Hne. unfold methods_of. induction l as [|[x|x ms|t] r IH]; cbn [filter keep]; [reflexivity| | |exact IH].
  all: destruct (Nat.eqb_spec x n) as [->|]; cbn [negb flat_map app]; rewrite IH; try reflexivity.
  now destruct (Nat.eqb_spec k n).
Qed.

(* removing a type leaves every other entry unchanged *)
Theorem unrelated_type_local items n k :
  k <> n -> lookup k (collect (filter (keep n) items)) = lookup k (collect items).
Proof. intros Hne. now rewrite !collect_lookup, names_keep, methods_keep. Qed.

Example collect_example :
  collect [ImplBlock 5 [1]; TypeDecl 9; Other 0; TypeDecl 5; ImplBlock 2 [7; 8]; ImplBlock 5 [3]] = [(2, [7; 8]); (5, [1; 3]); (9, [])].
Proof. reflexivity. Qed.
